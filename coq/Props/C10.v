(* C10 - pending commands: Next never blocks, resumes once, handlers run exactly once.
   Partial: data races between the runner and handler goroutines are observed by the correspondence
   harness only (race detector). For <<wait n>> the duration handed to time.Sleep is modelled and
   bounded below (end of this file); that time.Sleep(d) returns no earlier than d later is the Go
   runtime's contract, observed on real timers by family waits. *)
From Coq Require Import List.
From YS Require Import Base.Sexp Yarn.Ast Yarn.Eval Yarn.Runner Proofs.SafetyProofs.
Import ListNotations.

(* whatever the schedule: while the command has not completed, Next answers "waiting", changes
   nothing but the poll count and starts nothing *)
Theorem C10_pending_is_inert : forall d fm m c k r, pending (dat m) = Some (S k, r) ->
  next d (S fm) m c = (NWait, mk (stack m) (last_opts m) (upd_pending (dat m) (Some (k, r)))).
Proof. exact pending_is_inert. Qed.
Print Assumptions C10_pending_is_inert.

Theorem C10_pending_frame : forall s k r, pending s = Some (S k, r) ->
  let s' := snd (poll s) in
  vars s' = vars s /\ slog s' = slog s /\ fe s' = fe s /\ visits s' = visits s /\ cur s' = cur s /\
  sched s' = sched s.
Proof. exact pending_inert_frame. Qed.
Print Assumptions C10_pending_frame.

(* completion: the dialogue resumes at the statement after the command, exactly as if the command
   had completed at once (C01's theorem applies to the right-hand side) *)
Theorem C10_resume_after_completion : forall d fm m c, pending (dat m) = Some (O, CNil) ->
  next d (S fm) m c = next d (S fm) (mk (stack m) (last_opts m) (upd_pending (dat m) None)) c.
Proof. exact resume_after_completion. Qed.
Print Assumptions C10_resume_after_completion.

Theorem C10_error_surfaced_once : forall d fm m c, pending (dat m) = Some (O, CErr) ->
  next d (S fm) m c = (NErr, mk (stack m) (last_opts m) (upd_pending (dat m) None)).
Proof. exact error_surfaced_once. Qed.
Print Assumptions C10_error_surfaced_once.

Theorem C10_handler_exactly_once : forall s name args,
  str_eqb name (STR "stop") = false -> mem_str name (hcmds s) = true ->
  hlog (fe (snd (exec_command (EVal (VStr name) :: map EVal args) s))) = HCmd name args :: hlog (fe s).
Proof. exact handler_exactly_once. Qed.
Print Assumptions C10_handler_exactly_once.

Theorem C10_stop_never_dispatched : forall s args,
  exec_command (EVal (VStr (STR "stop")) :: map EVal args) s = (CmdStop, s).
Proof. exact stop_never_dispatched. Qed.
Print Assumptions C10_stop_never_dispatched.

(* ---------- <<wait n>>: the duration handed to time.Sleep ---------- *)
From Coq Require Import Reals.
From Flocq Require Import Core BinarySingleNaN.
From YS Require Import Num.F64 Yarn.Timed Proofs.WaitProofs.

(* for every finite n >= 0 (up to 2^62 ns) the sleep lasts at least n seconds, up to the rounding of
   the one binary64 multiplication and the truncation to whole nanoseconds: fractional n included *)
Theorem C10_wait_duration_at_least_n_seconds : forall n : f64,
  is_finite n = true -> (0 <= B2R n)%R -> (B2R n * 1000000000 <= bpow radix2 62)%R ->
  (0 <= wait_nanos n)%Z /\
  (B2R n * 1000000000 * (1 - bpow radix2 (-53)) - 1 < IZR (wait_nanos n))%R.
Proof. exact wait_nanos_lower_bound. Qed.
Print Assumptions C10_wait_duration_at_least_n_seconds.

(* a poll at instant t of a wait started at t0 answers "completed" only that much later *)
Theorem C10_wait_not_reported_early : forall (n : f64) (t0 t : Z),
  is_finite n = true -> (0 <= B2R n)%R -> (B2R n * 1000000000 <= bpow radix2 62)%R ->
  wait_may_complete t0 n t = true ->
  (B2R n * 1000000000 * (1 - bpow radix2 (-53)) - 1 < IZR (t - t0))%R.
Proof. exact wait_not_reported_early. Qed.

(* non-vacuity (and D11): 0.9 s, 0.0009 s and 2.01 s keep their fractions *)
Example C10_wait_examples :
  wait_nanos (of_bits 4606281698874543309) = 900000000%Z /\
  wait_nanos (of_bits 4561440258104740754) = 900000%Z /\
  wait_nanos (of_bits 4611708536425524756) = 2009999999%Z  (* 2.01: the product rounds just below, hence the "- 1" *).
Proof. vm_compute. repeat split. Qed.
