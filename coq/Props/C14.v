(* C14 - markup parsing is a pure function of the line. *)
From Coq Require Import List.
From YS Require Import Markup.LineParser Proofs.MarkupProofs.
Import ListNotations.

(* the persistent fields of a LineParser value (input, reader, sourcePosition, position) are all
   written before they are read: two parser values in ANY states give the same result *)
Theorem C14_state_independent : forall st1 st2 input,
  snd (parse_markup_on st1 input) = snd (parse_markup_on st2 input).
Proof. exact parse_markup_state_independent. Qed.
Print Assumptions C14_state_independent.

(* after any history of parsed lines, failing ones included, the result is that of the line alone *)
Theorem C14_result_after_any_history : forall hist st input,
  snd (parse_markup_on (fold_left (fun s h => fst (parse_markup_on s h)) hist st) input) = parse_markup input.
Proof. exact result_after_any_history. Qed.
Print Assumptions C14_result_after_any_history.
