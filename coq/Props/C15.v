(* C15 - markup parsing is total and its results are safe to use. *)
From Coq Require Import List ZArith.
From YS Require Import Base.Sexp Markup.LineParser Proofs.MarkupProofs.
Import ListNotations.

(* totality: the model's loops run on fuel computed from the input (one unit per rune, plus one);
   more fuel never changes the answer, so the loops never stop for lack of it and [None] is always
   an error value of the Go code (the parser has no panic site: every Go error path is a None) *)
Theorem C15_fuel_is_sufficient : forall input extra,
  main_loop (S (length input) + extra) {| rest := input; sp := 0 |} [] 0 [] 0%N =
  main_loop (S (length input)) {| rest := input; sp := 0 |} [] 0 [] 0%N.
Proof. exact parse_markup_fuel_irrelevant. Qed.
Print Assumptions C15_fuel_is_sufficient.

Theorem C15_property_loop_fuel_is_sufficient : forall f1 f2 r name props pos src,
  length (rest r) < f1 -> length (rest r) < f2 ->
  parse_props f1 r name props pos src = parse_props f2 r name props pos src.
Proof. exact parse_props_fuel. Qed.
Print Assumptions C15_property_loop_fuel_is_sufficient.

(* every returned attribute: position and length non-negative, range inside the text, in characters *)
Theorem C15_attribute_ranges_inside : forall input text attrs, parse_markup input = Some (text, attrs) ->
  Forall (range_ok text) attrs.
Proof. exact attribute_ranges_inside. Qed.
Print Assumptions C15_attribute_ranges_inside.

(* asking for the text of any returned attribute does not panic *)
Theorem C15_text_for_attribute_safe : forall input text attrs, parse_markup input = Some (text, attrs) ->
  forall a, In a attrs -> text_for_attribute text a <> None.
Proof. exact text_for_attribute_safe. Qed.
Print Assumptions C15_text_for_attribute_safe.

(* for byte strings: decoding (Go's conversion, invalid bytes become U+FFFD) then parsing *)
Corollary C15_bytes : forall bs text attrs, parse_markup (decode bs) = Some (text, attrs) ->
  Forall (range_ok text) attrs /\ forall a, In a attrs -> text_for_attribute text a <> None.
Proof. intros bs text attrs H. split; [exact (attribute_ranges_inside _ _ _ H)|exact (text_for_attribute_safe _ _ _ H)]. Qed.
Print Assumptions C15_bytes.

Example C15_trailing_space_in_marker :
  option_map (fun p => map (fun a => (apos a, alen a)) (snd p)) (parse_markup (STR "hello [a]world  [/a]"))
  = Some [(6, 5)]%Z.
Proof. vm_compute. reflexivity. Qed.
