(* C16 - converted host functions/commands: accepted means callable without panics. *)
From Coq Require Import List ZArith.
From YS Require Import Base.Sexp Num.F64 Yarn.Ast Yarn.Eval Yarn.Bridge Proofs.BridgeProofs.
Import ListNotations.

(* for every signature - any number of parameters of any types, an optional variadic tail, any
   results - and every argument list: what the input converter lets through satisfies the
   precondition of reflect.Value.Call (count, and the exact parameter type for each argument, named
   types included) *)
Theorem C16_converted_arguments_are_callable : forall s args gs,
  convert_args s args = Some gs -> call_ok s gs = true.
Proof. exact converted_arguments_are_callable. Qed.
Print Assumptions C16_converted_arguments_are_callable.

(* hence a successfully registered function / command never panics in the bridge, whatever the
   script passes (the host function itself returning as many results as its type says) *)
Theorem C16_accepted_function_never_panics : forall r b host args,
  register_function r = Some b -> host_ok (bsig b) host -> call_function_bridge b host args <> Crash.
Proof. exact accepted_function_never_panics. Qed.
Print Assumptions C16_accepted_function_never_panics.

Theorem C16_accepted_command_never_panics : forall r b host chan_nil args,
  register_command r = Some b -> host_ok (bsig b) host -> call_command_bridge b host chan_nil args <> Crash.
Proof. exact accepted_command_never_panics. Qed.
Print Assumptions C16_accepted_command_never_panics.

Theorem C16_nil_and_non_functions_are_refused :
  register_function RNilInterface = None /\ register_function RNotAFunction = None /\
  (forall s, register_function (RNilFunction s) = None) /\
  register_command RNilInterface = None /\ register_command RNotAFunction = None /\
  (forall s, register_command (RNilFunction s) = None).
Proof. exact nil_and_non_functions_are_refused. Qed.

Theorem C16_registration_characterised : forall s,
  (exists b, register_function (RFunction s) = Some b) <-> bridgeable_function s = true.
Proof. exact function_registration_characterised. Qed.
Print Assumptions C16_registration_characterised.

Theorem C16_conversion_faithful : forall t v g, convert_arg t v = Some g ->
  vtype g = t /\
  match v, vpay g with
  | VBool b, PBool b' => b = b'
  | VStr s, PStr s' => s = s'
  | VNum x, PInt z => z = int_conv (gk t) x
  | VNum x, PFloat f => f = x \/ f = to_f32 x
  | _, _ => False
  end.
Proof. exact conversion_faithful. Qed.
Print Assumptions C16_conversion_faithful.

(* non-vacuity: func(MyInt, MyIntB, ...MyString) (float64, error) - two defined types of one kind -
   is bridgeable and every argument arrives with exactly its parameter's type *)
Example C16_example :
  let s := {| params := [mk_t KInt 1 false; mk_t KInt 13 false]; variadic := Some (mk_t KString 9 false);
              results := [mk_t KFloat64 0 false; mk_t KIface 0 true] |} in
  bridgeable_function s = true /\
  option_map (map (fun g => gname (vtype g))) (convert_args s [VNum (of_Z 3); VNum (of_Z 4); VStr (STR "a"); VStr (STR "b")])
    = Some [1; 13; 9; 9]%N.
Proof. vm_compute. split; reflexivity. Qed.
