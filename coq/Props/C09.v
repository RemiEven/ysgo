(* C09 - same script, seed and choices give the same run; random built-ins stay in range.
   Partial: "the same run in every process, whatever ran before" is a statement about the Go runtime
   (clock, global math/rand source, map iteration order).  The model is a function of (dialogue, raw
   stream derived from the seed, choices, host behaviour) and consults nothing else; the
   correspondence family feeds it the stream of an independent rand.NewSource(seed integer) and
   compares with repeated executions of the implementation, in process and in child processes. *)
From Coq Require Import List Bool Reals.
From YS Require Import Base.Sexp Num.F64 Yarn.Ast Yarn.Eval Yarn.RunnerWire Proofs.RngProofs Proofs.RandomProofs Proofs.FlowProofs Proofs.SimProofs.
Import ListNotations.
Local Open Scope Z_scope.

(* determinism, the logic half: a run - the elements returned for any sequence of choices - is a
   function of the script, the runner's dialogue state (continuation, variables as a map, pending
   command, current node, visit counts), the host's command behaviour and the random stream derived
   from the seed.  Two runners equal in these give the same run; nothing else (logs, checkpoints,
   internal layout of maps) can influence it. *)
Theorem C09_same_state_same_run : forall d f cs m1 m2, rsim m1 m2 ->
  fst (iter_next d f m1 cs) = fst (iter_next d f m2 cs) /\ rsim (snd (iter_next d f m1 cs)) (snd (iter_next d f m2 cs)).
Proof. exact iter_next_sim. Qed.
Print Assumptions C09_same_state_same_run.

Theorem C09_intn_range : forall n e, 0 < n -> 0 <= fst (intn n e) < n.
Proof. exact intn_range. Qed.
Print Assumptions C09_intn_range.

Theorem C09_dice_range : forall v x e, 1 <= to_int64 x ->
  exists r e', call_builtin v (STR "dice") [VNum x] e = Some (Val (Some (VNum (of_Z r))), e') /\
               1 <= r <= to_int64 x.
Proof. exact dice_range. Qed.
Print Assumptions C09_dice_range.

Theorem C09_random_range_range : forall v a b e,
  to_int64 a <= to_int64 b -> to_int64 b - to_int64 a + 1 < two63 ->
  exists r e', call_builtin v (STR "random_range") [VNum a; VNum b] e = Some (Val (Some (VNum (of_Z r))), e') /\
               to_int64 a <= r <= to_int64 b.
Proof. exact random_range_range. Qed.
Print Assumptions C09_random_range_range.

Theorem C09_random_range_too_wide_is_error : forall v a b e,
  to_int64 a <= to_int64 b -> two63 <= to_int64 b - to_int64 a + 1 ->
  call_builtin v (STR "random_range") [VNum a; VNum b] e = Some (Fail, e).
Proof. exact random_range_too_wide_is_error. Qed.
Print Assumptions C09_random_range_too_wide_is_error.

(* random(): for every stream of Int63 values a finite number in [0, 1], and below 1 unless 17
   candidates in a row rounded to 1 (the real code keeps drawing; 16 is the model's redraw budget).
   B2R is Flocq's real value of a double. *)
Theorem C09_random_range : forall v e, int63_stream (rng e) ->
  exists x e', call_builtin v (STR "random") [] e = Some (Val (Some (VNum x)), e') /\
               Flocq.IEEE754.BinarySingleNaN.is_finite x = true /\
               (0 <= Flocq.IEEE754.BinarySingleNaN.B2R x <= 1)%R /\
               ((Flocq.IEEE754.BinarySingleNaN.B2R x < 1)%R \/ (length (rng e) - length (rng e') = 17)%nat).
Proof. exact random_builtin_range. Qed.
Print Assumptions C09_random_range.

Theorem C09_seed_alphabet_accepted : forall s acc,
  (forall c, In c s -> ((48 <=? c) && (c <=? 57) || (97 <=? c) && (c <=? 122))%N = true) ->
  seed_to_int64 s acc <> None.
Proof. exact seed_alphabet. Qed.
Print Assumptions C09_seed_alphabet_accepted.

(* non-vacuity: a seed that wraps int64 *)
Example C09_seed_wraps : seed_to_int64 (STR "zzzzzzzzzzzzzz") 0 = Some (-1823562080465190913).
Proof. vm_compute. reflexivity. Qed.
