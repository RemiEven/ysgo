(* C18 - independent runners can be created and driven concurrently.
   Partial: data-race freedom and the synchronisation inside the ANTLR runtime are properties of the
   Go memory model and runtime that no executable Gallina model expresses; they are observed by the
   correspondence family 'concurrent' (goroutines under the race detector).  What is proved is the
   logical half: the model of a runner owns all of its state, so under ANY interleaving of the
   operations of any number of runners each runner ends in the state - and produces the trace - of
   being driven alone. *)
From Coq Require Import List ZArith.
From YS Require Import Yarn.Ast Yarn.Runner Proofs.ConcurrencyProofs.
Import ListNotations.

(* one operation of one runner: a Next call with an argument *)
Definition rstep (d : dialogue) (fuel : nat) (m : rstate) (c : Z) : rstate := snd (next d fuel m c).

Theorem C18_interleaving_projection : forall d fuel (sched : list (nat * Z)) (sys : list rstate) i m,
  nth_error sys i = Some m ->
  nth_error (fold_left (sys_step rstate Z (rstep d fuel)) sched sys) i
  = Some (solo rstate Z (rstep d fuel) m i sched).
Proof. intros d fuel. exact (interleaving_projection rstate Z (rstep d fuel)). Qed.
Print Assumptions C18_interleaving_projection.
