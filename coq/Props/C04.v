(* C04 - line/option rendering: literal text, escapes, interpolation, tags, Disabled.
   Partial: the lexing theorems are about a transcription of the TextMode part of
   YarnSpinnerLexer.g4 (Syntax/TextLine.v; the generated lexer itself is not verified - the
   correspondence family 'textline' compares the transcription with the implementation's parser on
   every run); number display rests on the strconv models of Num/Decimal.v. *)
From Coq Require Import List ZArith Bool.
From YS Require Import Base.Sexp Num.F64 Yarn.Ast Yarn.Value Yarn.Eval Yarn.Runner Syntax.TextLine Syntax.TextLineWire Proofs.TextLineProofs Proofs.RenderProofs Proofs.LiteralProofs.
Import ListNotations.
Local Open Scope N_scope.

(* every character of a literal text - escaped by the printer or not, first in the line or later -
   reaches the line's text; nothing else does *)
Theorem C04_text_roundtrip : forall t, line_text_ok t -> lex_line (escape t) = Some (t, []).
Proof. exact text_roundtrip. Qed.
Print Assumptions C04_text_roundtrip.

(* trailing #hashtags: returned in order, without '#', never in the text *)
Theorem C04_tags_roundtrip : forall t t0 tags, line_text_ok t -> good_tag t0 -> Forall good_tag tags ->
  lex_line (escape t ++ 35 :: t0 ++ render_tags tags) = Some (t, t0 :: tags).
Proof. exact text_tags_roundtrip. Qed.
Print Assumptions C04_tags_roundtrip.

(* comments never appear *)
Theorem C04_comment_removed : forall t cm, line_text_ok t -> no_newline cm ->
  lex_line (escape t ++ 47 :: 47 :: cm) = Some (t, []).
Proof. exact comment_removed. Qed.
Print Assumptions C04_comment_removed.

(* characters that may be written with or without a backslash *)
Theorem C04_optional_escape : forall c rest_ acc, (c =? 62) || (c =? 125) = true ->
  lex_text (92 :: c :: rest_) acc = lex_text (c :: rest_) acc.
Proof. exact optional_escape_same. Qed.

(* end to end for literal text (lexer transcription, then the markup phase): a line written as any
   sequence of characters - each escapable one with or without its backslash, '<' and '/' single, ']'
   plain, brackets escaped - is returned with every escape resolved, trimmed; with hashtags the tags
   are returned in order; a comment never appears.  Excluded: an escaped bracket as the very first
   character (finding D21) and an escaped backslash directly before a plain ']' (finding D27). *)
Theorem C04_literal_text_resolved : forall t ts,
  first_ok t = true -> lex_ok None (t :: ts) = true -> mk_ok (t :: ts) = true ->
  literal_pipeline (write (t :: ts)) = Some (trim_space (meaning (t :: ts)), []).
Proof. exact literal_text_resolved. Qed.
Print Assumptions C04_literal_text_resolved.

Theorem C04_literal_text_resolved_tags : forall t ts t0 tags,
  first_ok t = true -> lex_ok (Some 35) (t :: ts) = true -> mk_ok (t :: ts) = true ->
  good_tag t0 -> Forall good_tag tags ->
  literal_pipeline (write (t :: ts) ++ 35 :: t0 ++ render_tags tags)
    = Some (trim_space (meaning (t :: ts)), t0 :: tags).
Proof. exact literal_text_resolved_tags. Qed.

Theorem C04_literal_text_resolved_comment : forall t ts cm,
  first_ok t = true -> lex_ok (Some 47) (t :: ts) = true -> mk_ok (t :: ts) = true ->
  literal_pipeline (write (t :: ts) ++ 47 :: 47 :: cm) = Some (trim_space (meaning (t :: ts)), []).
Proof. exact literal_text_resolved_comment. Qed.

(* known finding D27: the excluded shape really fails - the source a\\]b means a\]b, the runner
   returns a]b (the lexer resolves the escaped backslash, the markup phase resolves it again) *)
Theorem C04_escaped_backslash_before_bracket_refuted :
  let ts := [TChar 97; TEsc 92; TChar 93; TChar 98] in
  first_ok (TChar 97) = true /\ lex_ok None ts = true /\ mk_ok ts = false /\
  meaning ts = [97; 92; 93; 98] /\
  literal_pipeline (write ts) = Some ([97; 93; 98], []).
Proof. exact escaped_backslash_before_bracket_refuted. Qed.
Print Assumptions C04_escaped_backslash_before_bracket_refuted.

(* known finding D21: "\[" is text inside a line and a syntax error at its start *)
Theorem C04_first_char_bracket_refuted :
  lex_line [97; 92; 91; 98; 92; 93] = Some ([97; 92; 91; 98; 92; 93], []) /\ lex_line [92; 91; 98; 92; 93] = None.
Proof. exact first_char_bracket_refuted. Qed.
Print Assumptions C04_first_char_bracket_refuted.

(* option groups: one rendered option per option, in order, same tags; Disabled is false without a
   condition and the negation of the condition's boolean value otherwise *)
Theorem C04_options_preserved : forall os s ros s', render_options s os = (Val ros, s') ->
  Forall2 (option_rendered s) os ros.
Proof. exact options_preserved. Qed.
Theorem C04_options_same_length : forall os s ros s', render_options s os = (Val ros, s') ->
  length ros = length os.
Proof. exact options_same_length. Qed.
Print Assumptions C04_options_same_length.

(* interpolation: literal parts and display forms of values, concatenated in order *)
Theorem C04_values_concatenated_in_order : forall s vs acc,
  render_parts s (map (fun v => TExpr (EVal v)) vs) acc = (Val (acc ++ flat_map to_string vs), s).
Proof. exact render_parts_concat_values. Qed.
Print Assumptions C04_values_concatenated_in_order.

(* display forms: True/False, strings verbatim, integral numbers without a decimal point *)
Example C04_display_examples :
  map to_string [VBool true; VBool false; VStr (STR "x y"); VNum (of_Z 3); VNum (fneg (of_Z 7));
                 VNum (fdiv (of_Z 5) (of_Z 2)); VNum (fdiv (of_Z 1) (of_Z 3)); VNum (of_Z (10 ^ 20))]
  = [STR "True"; STR "False"; STR "x y"; STR "3"; STR "-7"; STR "2.5"; STR "0.3333333333333333";
     STR "100000000000000000000"].
Proof. vm_compute. reflexivity. Qed.

(* ---------- display forms of interpolated values ---------- *)
From Coq Require Import Reals.
From Flocq Require Import BinarySingleNaN.
From YS Require Import Num.F64 Proofs.DisplayProofs.

(* integral numbers (in the int64 range) are shown as an optional minus sign and decimal digits:
   no decimal point, no exponent *)
Theorem C04_integral_numbers_without_decimal_point : forall n : f64,
  is_finite n = true -> B2R n = IZR (Btrunc n) -> (- two63 <= Btrunc n < two63)%Z ->
  num_to_string n = z_to_str (Btrunc n) /\
  exists ds, ds <> [] /\ Forall (fun c => is_digit c = true) ds /\
             (num_to_string n = ds \/ num_to_string n = 45%N :: ds).
Proof.
  intros n F I R. split; [exact (integral_number_displayed_as_integer n F I R)|exact (integral_number_has_no_decimal_point n F I R)].
Qed.
Print Assumptions C04_integral_numbers_without_decimal_point.

Theorem C04_booleans_and_strings_display : forall (b : bool) (s : str),
  to_string (VBool b) = (if b then STR "True" else STR "False") /\ to_string (VStr s) = s.
Proof. exact booleans_and_strings_display. Qed.
