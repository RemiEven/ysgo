(* C01 - dialogue flow follows Yarn's sequential semantics for every script and path.
   Property theorems only. *)
From Coq Require Import List ZArith Bool.
From YS Require Import Base.Sexp Yarn.Ast Yarn.Value Yarn.Runner Spec.FlowSpec Proofs.FlowProofs Proofs.FuelProofs.
Import ListNotations.

(* one call of Next, from any state related to a specification state, for every dialogue, choice
   and fuel (an exhausted fuel is the only excluded outcome): same element, related states *)
Theorem C01_next_refines_flow : forall d fm m s c r m',
  R m s -> next d fm m c = (r, m') -> r <> NFuel ->
  exists fs s', snext d fs s c = (r, s') /\ R m' s'.
Proof. exact next_refines_flow. Qed.
Print Assumptions C01_next_refines_flow.

(* every sequence of Next calls: the elements are those of the flat-continuation semantics *)
Theorem C01_run_refines_flow : forall d fm cs m s outs m',
  R m s -> iter_next d fm m cs = (outs, m') -> ~ In NFuel outs ->
  exists s', sruns d s cs outs s' /\ R m' s'.
Proof. exact run_refines_flow. Qed.
Print Assumptions C01_run_refines_flow.

(* a fresh runner starts related to the specification's initial state: the body of the first node
   of the (concatenated) dialogue *)
Theorem C01_initial_state : forall d init stream sc cmds m,
  new_runner d init stream sc cmds = Some m -> exists s, sinit d (dat m) = Some s /\ R m s.
Proof. exact R_new_runner. Qed.
Print Assumptions C01_initial_state.

(* the argument of Next has no effect unless the previous element was an option group *)
Theorem C01_choice_irrelevant : forall d fm m c1 c2, last_opts m = None ->
  next d fm m c1 = next d fm m c2.
Proof. exact next_choice_irrelevant. Qed.
Print Assumptions C01_choice_irrelevant.

(* fuel is a proof device: an answer given with some fuel is the answer with any larger fuel, so
   "unless OutOfFuel" in the theorems above and below excludes only executions that never yield
   (finding D7), and the fuel the wire layer passes cannot influence an observation *)
Theorem C01_fuel_monotone : forall d f m c r m', next d f m c = (r, m') -> r <> NFuel ->
  forall f', (f <= f')%nat -> next d f' m c = (r, m').
Proof. exact next_fuel_mono. Qed.
Print Assumptions C01_fuel_monotone.

Theorem C01_fuel_irrelevant : forall d f1 f2 m c,
  fst (next d f1 m c) <> NFuel -> fst (next d f2 m c) <> NFuel -> next d f1 m c = next d f2 m c.
Proof. exact next_fuel_irrelevant. Qed.

(* non-vacuity: options nested in an if nested in an option, a jump out of the nested body, an
   if-body ending in an option group; the machine and the specification agree on a full path *)
Local Open Scope string_scope.
Definition ex_line (t : String.string) : stmt :=
  SLine {| ltext := [TText (str_of_string t)]; lcond := None; ltags := [] |}.
Definition ex_opt (t : String.string) (b : list stmt) : line * list stmt :=
  ({| ltext := [TText (str_of_string t)]; lcond := None; ltags := [] |}, b).
Definition ex_dialogue : dialogue :=
  [ {| headers := [(STR "title", STR "A")];
       body := [ex_line "a1";
                SOpts [ex_opt "o1" [SIf [(EVal (VBool true),
                                          [ex_line "in if"; SOpts [ex_opt "p1" [ex_line "deep"; SJump (EVal (VStr (STR "B")))];
                                                                   ex_opt "p2" []]])];
                                     ex_line "after if"];
                       ex_opt "o2" []];
                ex_line "a2"] |};
    {| headers := [(STR "title", STR "B")]; body := [ex_line "b1"; SCmd [EVal (VStr (STR "stop"))]; ex_line "never"] |} ].

Definition ex_outs (cs : list Z) : option (list nres) :=
  match new_runner ex_dialogue empty_store [] [] [] with
  | Some m => Some (fst (iter_next ex_dialogue 100 m cs))
  | None => None
  end.

Definition is_line (r : nres) (n t : String.string) : bool :=
  match r with
  | NElem (ELine nd l) => str_eqb nd (str_of_string n) && str_eqb (rtext l) (str_of_string t)
  | _ => false
  end.

Example C01_example_path :
  match ex_outs [7; 0; 0; 0; 1; 0; 0; 0; 5]%Z with
  | Some [r1; NElem (EOpts _ _); r3; NElem (EOpts _ _); r5; r6; NEnd; NEnd; NEnd] =>
      is_line r1 "A" "a1" && is_line r3 "A" "in if" && is_line r5 "A" "after if" && is_line r6 "A" "a2"
  | _ => false
  end = true.
Proof. vm_compute. reflexivity. Qed.

Example C01_example_jump :
  match ex_outs [0; 0; 0; 0; 0; 0; 0]%Z with
  | Some [_; _; _; _; r5; r6; NEnd] => is_line r5 "A" "deep" && is_line r6 "B" "b1"
  | _ => false
  end = true.
Proof. vm_compute. reflexivity. Qed.
