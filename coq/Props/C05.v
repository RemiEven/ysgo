(* C05 - loading any input yields a runner or an error; bad syntax is an error.
   Partial: which byte strings are valid scripts is decided by the generated ANTLR lexer and parser,
   which are not modelled; the correspondence family 'load' judges the implementation against an
   independent run of that same generated code with its own error listeners.  Proved here are the
   hand-written parts between the bytes and the runner: the indentation-aware lexer wrapper (never
   panics except on indentation mixing tabs and blanks, which FromReader recovers into an error),
   the seed rule, and the choice of the start node. *)
From Coq Require Import List ZArith Bool.
From YS Require Import Base.Sexp Yarn.Ast Yarn.Runner Yarn.RunnerWire Syntax.Indent Proofs.IndentProofs Proofs.RngProofs.
Import ListNotations.

(* the wrapper hands the parser a complete stream (no nil token, ends in EOF) for every base stream
   whose indentation never mixes tabs and blanks ... *)
Theorem C05_lexer_wrapper_total : forall ts, Forall clean_btok ts ->
  exists out, wrap ts [] = Some out /\
              forall fuel, length out <= fuel -> pull fuel (linit false ts) = Some out.
Proof. exact token_stream_total. Qed.
Print Assumptions C05_lexer_wrapper_total.

(* ... on the empty input it returns EOF at once ... *)
Theorem C05_empty_input : forall ts fuel, pull (S fuel) (linit true ts) = Some [TEOF].
Proof. exact pull_empty_input. Qed.

(* ... and the only other outcome is the (recovered) panic on mixed indentation *)
Theorem C05_only_mixed_indentation_panics : forall ts fuel,
  wrap ts [] = None -> pull fuel (linit false ts) = None.
Proof. exact pull_panics_iff_wrap. Qed.
Print Assumptions C05_only_mixed_indentation_panics.

(* seeds: every string over [0-9a-z] is accepted *)
Theorem C05_seed_alphabet_accepted : forall s acc,
  (forall c, In c s -> ((48 <=? c) && (c <=? 57) || (97 <=? c) && (c <=? 122))%N = true) ->
  seed_to_int64 s acc <> None.
Proof. exact seed_alphabet. Qed.
Print Assumptions C05_seed_alphabet_accepted.

(* a runner exists exactly when the dialogue has a node, and starts at the first one *)
Theorem C05_runner_iff_a_node : forall d init stream sc cmds,
  (new_runner d init stream sc cmds = None <-> d = []) /\
  (forall n rest_, d = n :: rest_ -> exists m, new_runner d init stream sc cmds = Some m /\
                                               stack m = [body n] /\ cur (dat m) = title n).
Proof.
  intros d init stream sc cmds. split.
  - destruct d; cbn; split; intros H; try reflexivity; discriminate.
  - intros n r E. subst. eexists. split; [reflexivity|]. split; reflexivity.
Qed.
Print Assumptions C05_runner_iff_a_node.

(* the statement rules of the generated parser + the listener, as modelled in Syntax/StmtParser.v over
   the token table extracted from the Go source (family stmtparse compares the model with
   tree.FromReader on every run, on printed programs, mutated programs, soups and cut scripts):
   errors reported by the lexer refuse the input whatever the tokens are, input left after the last
   node is refused, and a dialogue without a node is refused *)
From YS Require Import Yarn.Ast Syntax.ExprParser Generated.TokenTable Syntax.StmtParser Proofs.StmtParserProofs.

Theorem C05_lexer_errors_refuse_the_input : forall n ts, n <> 0%Z -> from_reader n ts = None.
Proof. intros n ts H. unfold from_reader. destruct (Z.eqb_spec n 0); [contradiction|reflexivity]. Qed.
Print Assumptions C05_lexer_errors_refuse_the_input.

Theorem C05_accepted_means_nodes_then_end_of_input : forall n ts d,
  from_reader n ts = Some d -> n = 0%Z /\ d <> [] /\ exists ts', parse_nodes (S (length ts)) (skip_file_hashtags ts) = Some (d, [(K_EOF, ts')]).
Proof.
  intros n ts d. unfold from_reader. destruct (Z.eqb_spec n 0) as [->|]; [|discriminate].
  unfold parse_dialogue. destruct (parse_nodes _ _) as [[ns r]|]; [|discriminate].
  destruct ns as [|nd ns]; [discriminate|]. destruct r as [|[k s] r]; [discriminate|].
  destruct k; try discriminate. destruct r; [|discriminate].
  intros H. inversion H; subst. split; [reflexivity|]. split; [discriminate|]. exists s. reflexivity.
Qed.
Print Assumptions C05_accepted_means_nodes_then_end_of_input.

(* every written statement sequence is accepted and read as what it stands for (C08 states it in full) *)
Theorem C05_written_statements_are_accepted :
  forall (er : expr -> list (kind * str)) (ewf : expr -> Prop),
  (forall e, Forall is_etok (er e)) ->
  (forall e, ewf e -> parse_expression (fst (take_etoks (er e))) = Some e) ->
  (forall f args, ewf (ECall f args) -> parse_call_toks (fst (take_etoks (er (ECall f args)))) = Some (f, args)) ->
  (forall v, ewf v -> (exists a, v = expr_of_atom a) \/ (exists f args, v = ECall f args) ->
             parse_value_toks (fst (take_etoks (er v))) = Some v) ->
  forall ws rest fuel,
    wfs er ewf ws (hd_kind rest) -> starts_statement rest = false -> wssize ws <= fuel ->
    parse_stmts fuel (pws er ws ++ rest) <> None.
Proof. intros er ewf H1 H2 H3 H4 ws rest fuel Hw Hs Hf. rewrite (parse_written er ewf H1 H2 H3 H4 ws rest fuel Hw Hs Hf). discriminate. Qed.
Print Assumptions C05_written_statements_are_accepted.

(* whole scripts: file-level hashtags, one or more nodes (each with at least one header - a key with or
   without a value - and a well-formed written body), end of input.  The model of tree.FromReader accepts
   every such token sequence and returns the dialogue it stands for: headers as a map (last value of a key,
   in key order), bodies by [meaning].  No fuel appears: the fuel the model gives its parsers
   (2 * tokens + 4 per body, tokens + 1 for the node list) is proved sufficient (size_tokens). *)
From YS Require Import Proofs.StmtParserTop.

Theorem C05_every_written_script_is_loaded :
  forall (er : expr -> list (kind * str)) (ewf : expr -> Prop),
  (forall e, Forall is_etok (er e)) ->
  (forall e, ewf e -> parse_expression (fst (take_etoks (er e))) = Some e) ->
  (forall f args, ewf (ECall f args) -> parse_call_toks (fst (take_etoks (er (ECall f args)))) = Some (f, args)) ->
  (forall v, ewf v -> (exists a, v = expr_of_atom a) \/ (exists f args, v = ECall f args) ->
             parse_value_toks (fst (take_etoks (er v))) = Some v) ->
  forall tags ns, ns <> [] -> Forall (node_ok er ewf) ns ->
    from_reader 0 (p_script er tags ns) = Some (map mean_node ns).
Proof. exact written_script_is_loaded. Qed.
Print Assumptions C05_every_written_script_is_loaded.

(* ... and with the expressions written as tokens of the real lexer's vocabulary (Proofs/ExprTokens.v:
   minimal parentheses over the generated precedence table, `$x`, `"s"`, digits, true / false / null),
   nothing is left as a parameter.  Proofs/ExprFuelProofs.v makes the fuel of the expression parser
   explicit (2 * tokens + 1 suffice; the model gives 4 * tokens + 4).  The one condition on expressions:
   the text written for a number is read back as that number ([ewf_min]: num_ok on every numeral -
   number(string(x)) = x is not proved in general, it is checked per literal by computation). *)
From YS Require Import Proofs.ExprTokens.

Theorem C05_every_written_script_is_loaded_real_tokens : forall tags ns,
  ns <> [] -> Forall (node_ok er_min ewf_min) ns ->
  from_reader 0 (p_script er_min tags ns) = Some (map mean_node ns).
Proof. exact written_script_tokens_are_loaded. Qed.
Print Assumptions C05_every_written_script_is_loaded_real_tokens.
