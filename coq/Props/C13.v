(* C13 - markup parsing recovers the plain text and exactly the enclosed ranges.
   Proved: the round trip for documents built from plain text, escaped brackets and open / close /
   close-all markers (any nesting, overlap and repetition, multi-byte text): the text comes back
   and every closed marker yields one attribute whose range delimits exactly the text it enclosed,
   "enclosed" being defined on the document (Proofs/MarkupDocProofs.v).
   Further down: the same with typed properties and self-closing markers, the implicit character
   attribute (alone, with edge blanks, inside marker documents), the trimming rule of a self-closing marker.
   Partial: the replacement markers, blanks at the edges of marker documents and the trimming rule
   inside the document round trip are outside these theorems; the correspondence family
   'markupdoc' compares the implementation both with the model and - for structured documents - with
   the meaning the generator knows by construction. *)
From Coq Require Import List ZArith Bool.
From YS Require Import Base.Sexp Yarn.Value Markup.LineParser Proofs.MarkupProofs Proofs.MarkupDocProofs.
Import ListNotations.

(* the round trip.  [render] writes the document, [text] is its plain text, [enclosed] computes -
   on the document, without positions - the (name, enclosed text) of every closed marker (None: a
   close marker without an open one, which must be an error). Hypotheses: names are identifiers that
   are not replacement markers, text chunks contain neither '[' nor a backslash, the text has no
   colon (no implicit character attribute) and no blank at either end (nothing to trim). *)
Theorem C13_document_roundtrip : forall its,
  Forall item_ok its ->
  forallb (fun c => negb (N.eqb c 58)) (text its) = true ->
  no_edge_space (text its) ->
  match enclosed its [] [] with
  | Some encl =>
      exists attrs, parse_markup (render its) = Some (text its, attrs) /\
        length attrs = length encl /\
        (forall e, In e encl -> exists a, In a attrs /\ aname a = fst e /\ aprops a = [] /\
                                          text_for_attribute (text its) a = Some (snd e)) /\
        (forall a, In a attrs -> exists e, In e encl /\ aname a = fst e /\ aprops a = [] /\
                                           text_for_attribute (text its) a = Some (snd e))
  | None => parse_markup (render its) = None
  end.
Proof. exact markup_document_roundtrip. Qed.
Print Assumptions C13_document_roundtrip.

(* non-vacuity: nested, overlapping and repeated markers, a multi-byte character, an escaped
   bracket, a close-all marker: the hypotheses hold and the enclosures are what one reads off *)
Definition ex_doc : list item :=
  [IText (STR "Start"); IOpen (STR "a"); IText (STR "x"); IOpen (STR "b"); IText [26085%N]; IBr 91%N;
   IClose (STR "a"); IText (STR "z"); IOpen (STR "a"); IText (STR "w"); ICloseAll; IText (STR "End")].
Example C13_example_hypotheses :
  Forall item_ok ex_doc /\ forallb (fun c => negb (N.eqb c 58)) (text ex_doc) = true /\ no_edge_space (text ex_doc) /\
  enclosed ex_doc [] [] = Some [(STR "a", STR "x" ++ [26085%N; 91%N]); (STR "b", [26085%N; 91%N] ++ STR "zw"); (STR "a", STR "w")].
Proof.
  split; [|split; [vm_compute; reflexivity|split; [split; vm_compute; reflexivity|vm_compute; reflexivity]]].
  repeat constructor; discriminate.
Qed.

(* text without markup, escapes or a character prefix is returned as it is, trimmed *)
Theorem C13_plain_text_identity_partial : forall t, forallb plain_rune t = true ->
  forallb (fun c => negb (N.eqb c 58)) t = true -> parse_markup t = Some (trim_space t, []).
Proof. exact plain_text_identity. Qed.
Print Assumptions C13_plain_text_identity_partial.

(* whatever is returned: TextForAttribute gives exactly [length] characters of the text, starting
   at [position] (ranges are in characters; no byte length is involved anywhere in the model) *)
Theorem C13_text_for_attribute_is_the_range : forall input text attrs a x,
  parse_markup input = Some (text, attrs) -> In a attrs -> text_for_attribute text a = Some x ->
  Z.of_nat (length x) = alen a.
Proof. exact text_for_attribute_length. Qed.
Print Assumptions C13_text_for_attribute_is_the_range.

(* non-vacuity / regression examples: nested same-name markers (D25), decimal fractions (D15),
   leading whitespace and multi-byte character prefix (D14), nomarkup closed by name (D16) *)
Definition show (r : option (str * list attribute)) : option (str * list (str * Z * Z)) :=
  option_map (fun p => (fst p, map (fun a => (aname a, apos a, alen a)) (snd p))) r.

Example C13_nested_same_name :
  show (parse_markup (STR "[a]x[a]y[/a]z[/a]")) = Some (STR "xyz", [(STR "a", 0, 3); (STR "a", 1, 1)]%Z).
Proof. vm_compute. reflexivity. Qed.
Example C13_leading_whitespace :
  show (parse_markup (STR "  [a]hello[/a]")) = Some (STR "hello", [(STR "a", 0, 5)]%Z).
Proof. vm_compute. reflexivity. Qed.
Example C13_nomarkup_by_name :
  show (parse_markup (STR "[nomarkup][b]x[/b][/nomarkup] y")) = Some (STR "[b]x[/b] y", [(STR "nomarkup", 0, 8)]%Z).
Proof. vm_compute. reflexivity. Qed.

(* ---- markers with properties (Proofs/MarkupPropsProofs.v) ----
   The round trip above, generalised: an open marker carries properties.  Written forms:
   [name k=v k=v ...] and the shorthand [name=v k=v ...] (one blank between properties), values being
   decimal integers below 2^63, decimals d.d (the value is strconv.ParseFloat of the text, as modelled in
   Num/Decimal.v), true / false, quoted strings without quote or backslash, bare words.
   [open_plain] / [open_short] are such markers as document items; the enclosure specification carries
   the written properties of every marker; the theorem: parsing returns the text, one attribute per
   closed marker with its name, with exactly the typed properties written on its open marker (as the
   property map of the attribute: a later value of a key replaces an earlier one) and the range of the
   text it enclosed.  Excluded by hypothesis: a property named trimwhitespace (it changes the text).
   Self-closing markers [name k=v .../] are items too ([P.self_marker]): each yields one attribute of
   length 0 at its position, with its properties; hypothesis [P.selfs_ok]: no blank directly after a
   self-closing marker (a self-closing marker standing at the start or after a blank trims one following
   blank - that rule changes the text and is left to family markupdoc).
   Still outside: replacement markers, the character prefix, edge blanks, the trimming rule. *)
Require YS.Proofs.MarkupPropsProofs.
Module P := YS.Proofs.MarkupPropsProofs.

Theorem C13_document_with_properties_roundtrip : forall its,
  Forall P.item_ok its -> P.selfs_ok its [] ->
  forallb (fun c => negb (N.eqb c 58)) (P.text its) = true ->
  P.no_edge_space (P.text its) ->
  match P.enclosed its [] [] with
  | Some encl =>
      exists attrs, parse_markup (P.render its) = Some (P.text its, attrs) /\
        length attrs = length encl /\
        (forall e, In e encl -> exists a, In a attrs /\ aname a = P.ename e /\ aprops a = props_map (P.eprops e) /\
                                          text_for_attribute (P.text its) a = Some (snd e)) /\
        (forall a, In a attrs -> exists e, In e encl /\ aname a = P.ename e /\ aprops a = props_map (P.eprops e) /\
                                           text_for_attribute (P.text its) a = Some (snd e))
  | None => parse_markup (P.render its) = None
  end.
Proof. exact P.markup_document_roundtrip. Qed.
Print Assumptions C13_document_with_properties_roundtrip.

(* the written forms meet the theorem's hypothesis on items *)
Theorem C13_written_properties_are_read : forall n ps, P.name_ok n -> Forall P.prop_ok ps ->
  get_prop (P.pvalues ps) (STR "trimwhitespace") = None -> P.item_ok (P.open_plain n ps).
Proof. exact P.open_plain_ok. Qed.
Theorem C13_shorthand_property_is_read : forall n v ps, P.name_ok n -> P.pv_ok v -> Forall P.prop_ok ps ->
  get_prop ((n, P.pv_value v) :: P.pvalues ps) (STR "trimwhitespace") = None -> P.item_ok (P.open_short n v ps).
Proof. exact P.open_short_ok. Qed.
Theorem C13_self_closing_marker_is_read : forall n ps, P.name_ok n -> Forall P.prop_ok ps ->
  get_prop (P.pvalues ps) (STR "trimwhitespace") = None -> P.item_ok (P.self_marker n ps).
Proof. exact P.self_marker_ok. Qed.
Print Assumptions C13_written_properties_are_read.

(* non-vacuity: [wave=3 loud=true who="Zoé" kind=big]x[b n=12]y[/wave]z[/b] - the written values come
   back typed, on the right ranges *)
Definition ex_pdoc : list P.item :=
  [P.open_short (STR "wave") (P.PVInt (STR "3")) [(STR "loud", P.PVBool true); (STR "who", P.PVQuoted [90; 111; 233]%N); (STR "kind", P.PVBare (STR "big"))];
   P.IText (STR "x"); P.open_plain (STR "b") [(STR "n", P.PVInt (STR "12"))]; P.IText (STR "y");
   P.IClose (STR "wave"); P.IText (STR "z"); P.IClose (STR "b")].
Example C13_properties_example :
  parse_markup (P.render ex_pdoc) =
  Some (STR "xyz",
        [{| aname := STR "wave"; apos := 0; alen := 2; asrc := 0;
            aprops := [(STR "wave", MInt 3); (STR "loud", MBool true); (STR "who", MStr [90; 111; 233]%N); (STR "kind", MStr (STR "big"))] |};
         {| aname := STR "b"; apos := 1; alen := 2; asrc := 38; aprops := [(STR "n", MInt 12)] |}]%Z)
  /\ P.enclosed ex_pdoc [] [] =
     Some [(STR "wave", [(STR "wave", MInt 3); (STR "loud", MBool true); (STR "who", MStr [90; 111; 233]%N); (STR "kind", MStr (STR "big"))], STR "xy");
           (STR "b", [(STR "n", MInt 12)], STR "yz")]%Z.
Proof. split; vm_compute; reflexivity. Qed.

(* a decimal value meets the hypothesis on values (D15: p=1.05 is 1.05, not 1.5) *)
Example C13_decimal_value_ok : P.pv_ok (P.PVDec (STR "1") (STR "05")).
Proof. cbn [P.pv_ok]. repeat split; discriminate. Qed.

(* a self-closing marker between texts: one attribute of length 0 where it stands *)
Definition ex_sdoc : list P.item :=
  [P.IText (STR "ab"); P.self_marker (STR "pause") [(STR "ms", P.PVInt (STR "250"))]; P.IText (STR "cd")].
Example C13_self_closing_example :
  P.selfs_ok ex_sdoc [] /\
  option_map (fun r => (fst r, map (fun a => (aname a, apos a, alen a, aprops a)) (snd r))) (parse_markup (P.render ex_sdoc))
  = Some (STR "abcd", [(STR "pause", 2, 0, [(STR "ms", MInt 250)])]%Z).
Proof. split; [split; [reflexivity|exact I]|vm_compute; reflexivity]. Qed.

(* the implicit character attribute (Proofs/MarkupCharacterProofs.v): a line `Name: rest` without
   markup - Name without colon, both parts without '[' or a backslash, no blank at either end of the
   line - comes back unchanged with exactly one attribute "character" at 0 whose length covers the
   name, the colon and every blank (regexp \s: tab, newline, form feed, carriage return, space)
   after it, and whose property "name" is the name (trimmed).  Multi-byte names included: lengths are
   counted in characters (finding D14 was the byte count). *)
Require YS.Proofs.MarkupCharacterProofs.
Module CP := YS.Proofs.MarkupCharacterProofs.

Theorem C13_character_prefix_partial : forall n t,
  forallb plain_rune n = true -> forallb CP.no_colon n = true -> forallb plain_rune t = true ->
  no_edge_space (n ++ 58%N :: t) ->
  parse_markup (n ++ 58%N :: t) =
  Some (n ++ 58%N :: t,
        [{| aname := STR "character"; apos := 0; alen := Z.of_nat (S (length n) + count_re_space t); asrc := 0;
            aprops := [(STR "name", MStr (trim_space n))] |}]).
Proof. exact CP.character_prefix. Qed.
Print Assumptions C13_character_prefix_partial.

(* and TextForAttribute on it returns exactly that prefix *)
Theorem C13_character_prefix_text : forall n t a text attrs,
  forallb plain_rune n = true -> forallb CP.no_colon n = true -> forallb plain_rune t = true ->
  no_edge_space (n ++ 58%N :: t) ->
  parse_markup (n ++ 58%N :: t) = Some (text, attrs) -> In a attrs ->
  text_for_attribute text a = Some (n ++ 58%N :: firstn (count_re_space t) t).
Proof. exact CP.character_prefix_text. Qed.
Print Assumptions C13_character_prefix_text.

Example C13_character_prefix_example :
  let n := [26085%N; 26412%N] in let t := STR "  hi there" in
  forallb plain_rune n = true /\ forallb CP.no_colon n = true /\ forallb plain_rune t = true /\ no_edge_space (n ++ 58%N :: t) /\
  count_re_space t = 2%nat.
Proof. vm_compute. repeat split; reflexivity. Qed.

(* the same without the edge hypothesis: blanks at either end of the line are trimmed from the text,
   the character attribute starts at 0 and ends where the prefix ends in the trimmed text *)
Theorem C13_character_prefix_with_edge_blanks : forall n t,
  forallb plain_rune n = true -> forallb CP.no_colon n = true -> forallb plain_rune t = true ->
  let T := n ++ 58%N :: t in
  let L := (Z.of_nat (length T) - Z.of_nat (length (trim_left T)))%Z in
  parse_markup T =
  Some (trim_space T,
        [{| aname := STR "character"; apos := 0;
            alen := Z.max 0 (Z.min (Z.of_nat (S (length n) + count_re_space t) - L) (Z.of_nat (length (trim_space T))));
            asrc := 0; aprops := [(STR "name", MStr (trim_space n))] |}]).
Proof. exact CP.character_prefix_general. Qed.
Print Assumptions C13_character_prefix_with_edge_blanks.

Example C13_character_prefix_edge_example :
  option_map (fun r => (fst r, map (fun a => (aname a, apos a, alen a, aprops a)) (snd r)))
    (parse_markup (STR "  Bob:  hi  ")) =
  Some (STR "Bob:  hi", [(STR "character", 0, 6, [(STR "name", MStr (STR "Bob"))])]%Z).
Proof. vm_compute. reflexivity. Qed.

(* the prefix combined with markers: a document (plain text, escaped brackets, open / close /
   close-all markers, any nesting) whose text reads `name: rest` yields the attributes of
   C13_document_roundtrip followed by the character attribute over the prefix - markers inside the
   name or around the colon included; hypothesis: no closed marker is itself called "character"
   (then the implementation adds none) *)
Theorem C13_document_with_character_prefix : forall its n t,
  Forall item_ok its ->
  text its = n ++ 58%N :: t -> forallb CP.no_colon n = true ->
  no_edge_space (text its) ->
  (forall encl e, enclosed its [] [] = Some encl -> In e encl -> str_eqb (fst e) (STR "character") = false) ->
  match enclosed its [] [] with
  | Some encl =>
      exists attrs, parse_markup (render its) =
          Some (text its, attrs ++ [{| aname := STR "character"; apos := 0;
                                       alen := Z.of_nat (S (length n) + count_re_space t); asrc := 0;
                                       aprops := [(STR "name", MStr (trim_space n))] |}]) /\
        length attrs = length encl /\
        (forall e, In e encl -> exists a, In a attrs /\ aname a = fst e /\ aprops a = [] /\
                                          text_for_attribute (text its) a = Some (snd e)) /\
        (forall a, In a attrs -> exists e, In e encl /\ aname a = fst e /\ aprops a = [] /\
                                           text_for_attribute (text its) a = Some (snd e))
  | None => parse_markup (render its) = None
  end.
Proof. exact CP.document_with_character_prefix. Qed.
Print Assumptions C13_document_with_character_prefix.

Definition ex_cdoc : list item :=
  [IOpen (STR "b"); IText (STR "Bo"); IText [26085%N]; IClose (STR "b"); IText (STR ": "); IOpen (STR "a");
   IText (STR "hi"); ICloseAll].
Example C13_character_document_example :
  Forall item_ok ex_cdoc /\ text ex_cdoc = (STR "Bo" ++ [26085%N]) ++ 58%N :: STR " hi" /\ no_edge_space (text ex_cdoc) /\
  enclosed ex_cdoc [] [] = Some [(STR "b", STR "Bo" ++ [26085%N]); (STR "a", STR "hi")] /\
  option_map (fun r => map (fun a => (aname a, apos a, alen a)) (snd r)) (parse_markup (render ex_cdoc)) =
  Some [(STR "b", 0, 3); (STR "a", 5, 2); (STR "character", 0, 5)]%Z.
Proof.
  split; [|split; [vm_compute; reflexivity|split; [split; vm_compute; reflexivity|split; vm_compute; reflexivity]]].
  repeat constructor; discriminate.
Qed.

(* the same for the documents with typed properties and self-closing markers *)
Require YS.Proofs.MarkupPropsCharacterProofs.
Module PC := YS.Proofs.MarkupPropsCharacterProofs.
Theorem C13_document_with_properties_and_character_prefix : forall its n t,
  Forall P.item_ok its -> P.selfs_ok its [] ->
  P.text its = n ++ 58%N :: t -> forallb CP.no_colon n = true ->
  P.no_edge_space (P.text its) ->
  (forall encl e, P.enclosed its [] [] = Some encl -> In e encl -> str_eqb (P.ename e) (STR "character") = false) ->
  match P.enclosed its [] [] with
  | Some encl =>
      exists attrs, parse_markup (P.render its) =
          Some (P.text its, attrs ++ [{| aname := STR "character"; apos := 0;
                                         alen := Z.of_nat (S (length n) + count_re_space t); asrc := 0;
                                         aprops := [(STR "name", MStr (trim_space n))] |}]) /\
        length attrs = length encl /\
        (forall e, In e encl -> exists a, In a attrs /\ aname a = P.ename e /\ aprops a = props_map (P.eprops e) /\
                                          text_for_attribute (P.text its) a = Some (snd e)) /\
        (forall a, In a attrs -> exists e, In e encl /\ aname a = P.ename e /\ aprops a = props_map (P.eprops e) /\
                                           text_for_attribute (P.text its) a = Some (snd e))
  | None => parse_markup (P.render its) = None
  end.
Proof. exact PC.document_with_character_prefix. Qed.
Print Assumptions C13_document_with_properties_and_character_prefix.

Definition ex_pcdoc : list P.item :=
  [P.IText (STR "Zo:"); P.open_plain (STR "b") [(STR "n", P.PVInt (STR "12"))]; P.IText (STR " y");
   P.self_marker (STR "pause") [(STR "ms", P.PVInt (STR "250"))]; P.IText (STR "z"); P.IClose (STR "b")].
Example C13_properties_character_example :
  P.selfs_ok ex_pcdoc [] /\ P.text ex_pcdoc = STR "Zo" ++ 58%N :: STR " yz" /\
  option_map (fun r => (fst r, map (fun a => (aname a, apos a, alen a, aprops a)) (snd r))) (parse_markup (P.render ex_pcdoc))
  = Some (STR "Zo: yz", [(STR "b", 3, 3, [(STR "n", MInt 12)]); (STR "pause", 5, 0, [(STR "ms", MInt 250)]);
                         (STR "character", 0, 4, [(STR "name", MStr (STR "Zo"))])]%Z).
Proof. split; [vm_compute; auto|split; vm_compute; reflexivity]. Qed.

(* an explicit marker called "character" suppresses the implicit attribute: whatever colons the text
   holds, the attributes are exactly those of the closed markers *)
Theorem C13_explicit_character_marker : forall its,
  Forall item_ok its ->
  no_edge_space (text its) ->
  (forall encl, enclosed its [] [] = Some encl -> exists e, In e encl /\ str_eqb (fst e) (STR "character") = true) ->
  match enclosed its [] [] with
  | Some encl =>
      exists attrs, parse_markup (render its) = Some (text its, attrs) /\
        length attrs = length encl /\
        (forall e, In e encl -> exists a, In a attrs /\ aname a = fst e /\ aprops a = [] /\
                                          text_for_attribute (text its) a = Some (snd e)) /\
        (forall a, In a attrs -> exists e, In e encl /\ aname a = fst e /\ aprops a = [] /\
                                           text_for_attribute (text its) a = Some (snd e))
  | None => parse_markup (render its) = None
  end.
Proof. exact CP.explicit_character_marker. Qed.
Print Assumptions C13_explicit_character_marker.

Definition ex_xdoc : list item :=
  [IOpen (STR "character"); IText (STR "Bob"); IClose (STR "character"); IText (STR ": hi: there")].
Example C13_explicit_character_example :
  Forall item_ok ex_xdoc /\ no_edge_space (text ex_xdoc) /\
  enclosed ex_xdoc [] [] = Some [(STR "character", STR "Bob")] /\
  option_map (fun r => (fst r, map (fun a => (aname a, apos a, alen a)) (snd r))) (parse_markup (render ex_xdoc)) =
  Some (STR "Bob: hi: there", [(STR "character", 0, 3)]%Z).
Proof.
  split; [|split; [split; vm_compute; reflexivity|split; vm_compute; reflexivity]].
  repeat constructor; discriminate.
Qed.

(* the whitespace-trimming rule of self-closing markers (Proofs/MarkupTrimProofs.v): a self-closing
   marker standing at the start of the text or directly after a blank swallows exactly ONE blank that
   directly follows it - the text is a ++ b, the attribute has length 0 at |a| - for every name, every
   written property list (no trimwhitespace property), every plain a and b without colon.
   [TR.lastr a 0] is the last character of a. *)
Require YS.Proofs.MarkupTrimProofs.
Module TR := YS.Proofs.MarkupTrimProofs.
Theorem C13_self_closing_trims_one_blank : forall n ps a ws b,
  P.name_ok n -> Forall P.prop_ok ps -> get_prop (P.pvalues ps) (STR "trimwhitespace") = None ->
  str_eqb n (STR "character") = false ->
  forallb plain_rune a = true -> forallb plain_rune b = true ->
  forallb CP.no_colon a = true -> forallb CP.no_colon b = true ->
  is_space ws = true ->
  (Z.of_nat (length a) =? 0)%Z || is_space (TR.lastr a 0%N) = true ->
  P.no_edge_space (a ++ b) ->
  exists src, parse_markup (a ++ 91%N :: P.w_self n ps ++ ws :: b) =
    Some (a ++ b, [{| aname := n; apos := Z.of_nat (length a); alen := 0; asrc := src;
                      aprops := props_map (P.pvalues ps) |}]).
Proof. exact TR.self_closing_trims_one_blank. Qed.
Print Assumptions C13_self_closing_trims_one_blank.

Example C13_self_closing_trim_example :
  option_map (fun r => (fst r, map (fun a => (aname a, apos a, alen a)) (snd r)))
    (parse_markup (STR "ab " ++ 91%N :: P.w_self (STR "pause") [(STR "ms", P.PVInt (STR "250"))] ++ STR "  cd")) =
  Some (STR "ab  cd", [(STR "pause", 3, 0)]%Z)
  /\ ((Z.of_nat (length (STR "ab ")) =? 0)%Z || is_space (TR.lastr (STR "ab ") 0%N) = true).
Proof. split; vm_compute; reflexivity. Qed.

(* the converse: a self-closing marker directly after a character that is not a blank swallows
   nothing, whatever follows it (b may begin with blanks) *)
Theorem C13_self_closing_after_nonblank_keeps : forall n ps a b,
  P.name_ok n -> Forall P.prop_ok ps -> get_prop (P.pvalues ps) (STR "trimwhitespace") = None ->
  str_eqb n (STR "character") = false ->
  forallb plain_rune a = true -> forallb plain_rune b = true ->
  forallb CP.no_colon a = true -> forallb CP.no_colon b = true ->
  (Z.of_nat (length a) =? 0)%Z || is_space (TR.lastr a 0%N) = false ->
  P.no_edge_space (a ++ b) ->
  exists src, parse_markup (a ++ 91%N :: P.w_self n ps ++ b) =
    Some (a ++ b, [{| aname := n; apos := Z.of_nat (length a); alen := 0; asrc := src;
                      aprops := props_map (P.pvalues ps) |}]).
Proof. exact TR.self_closing_after_nonblank_keeps. Qed.
Print Assumptions C13_self_closing_after_nonblank_keeps.

Example C13_self_closing_keep_example :
  option_map (fun r => (fst r, map (fun a => (aname a, apos a, alen a)) (snd r)))
    (parse_markup (STR "ab" ++ 91%N :: P.w_self (STR "pause") [(STR "ms", P.PVInt (STR "250"))] ++ STR "  cd")) =
  Some (STR "ab  cd", [(STR "pause", 2, 0)]%Z)
  /\ ((Z.of_nat (length (STR "ab")) =? 0)%Z || is_space (TR.lastr (STR "ab") 0%N) = false).
Proof. split; vm_compute; reflexivity. Qed.

(* a property trimwhitespace=false switches the rule off: nothing is swallowed, wherever the marker stands *)
Theorem C13_self_closing_trimwhitespace_false : forall n ps a b,
  P.name_ok n -> Forall P.prop_ok ps -> get_prop (P.pvalues ps) (STR "trimwhitespace") = Some (MBool false) ->
  str_eqb n (STR "character") = false ->
  forallb plain_rune a = true -> forallb plain_rune b = true ->
  forallb CP.no_colon a = true -> forallb CP.no_colon b = true ->
  P.no_edge_space (a ++ b) ->
  exists src, parse_markup (a ++ 91%N :: P.w_self n ps ++ b) =
    Some (a ++ b, [{| aname := n; apos := Z.of_nat (length a); alen := 0; asrc := src;
                      aprops := props_map (P.pvalues ps) |}]).
Proof. exact TR.self_closing_trimwhitespace_false. Qed.
Print Assumptions C13_self_closing_trimwhitespace_false.

Example C13_trimwhitespace_false_example :
  let ps := [(STR "trimwhitespace", P.PVBool false)] in
  get_prop (P.pvalues ps) (STR "trimwhitespace") = Some (MBool false) /\
  option_map (fun r => (fst r, map (fun a => (aname a, apos a, alen a)) (snd r)))
    (parse_markup (STR "ab " ++ 91%N :: P.w_self (STR "pause") ps ++ STR "  cd")) =
  Some (STR "ab   cd", [(STR "pause", 3, 0)]%Z).
Proof. split; vm_compute; reflexivity. Qed.
