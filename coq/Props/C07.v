(* C07 - snapshots are self-contained checkpoints; restore resumes from node entry.
   The runner model (Yarn/Runner.v) is purely functional: a snapshot is a value there.  Sharing of
   Go maps (the defect D8) is treated on a second, heap-explicit model of the same functions
   (Yarn/SnapHeap.v, theorems at the end of this file): no map is ever shared, so nothing a runner
   does changes a snapshot or another runner.  That the Go code allocates where the heap model
   allocates is what the correspondence family observes (old snapshots are re-read after further
   steps, two runners are restored from one snapshot, restores into any state).
   "Continues exactly as the original" is proved as a simulation (Proofs/SimProofs.v). *)
From Coq Require Import List.
From YS Require Import Yarn.Ast Yarn.Value Yarn.Runner Proofs.SafetyProofs Proofs.FlowProofs Proofs.StorerProofs Proofs.SimProofs.
Import ListNotations.

Theorem C07_restore_resumes_from_node_entry : forall d m sn m', restore_at d m sn = (true, m') ->
  exists n, find_node d (snode sn) = Some n /\
    stack m' = [body n] /\ last_opts m' = None /\ pending (dat m') = None /\
    cur (dat m') = snode sn /\ visits (dat m') = svisits sn /\ vsnap (dat m') = svars sn /\
    vars (dat m') = fold_left (fun st kv => st_set st (fst kv) (snd kv)) (svars sn) empty_store.
Proof. exact restore_resumes. Qed.
Print Assumptions C07_restore_resumes_from_node_entry.

Theorem C07_restore_independent_of_receiver : forall d m1 m2 sn m1' m2',
  restore_at d m1 sn = (true, m1') -> restore_at d m2 sn = (true, m2') ->
  stack m1' = stack m2' /\ last_opts m1' = last_opts m2' /\ pending (dat m1') = pending (dat m2') /\
  vars (dat m1') = vars (dat m2') /\ cur (dat m1') = cur (dat m2') /\ visits (dat m1') = visits (dat m2') /\
  vsnap (dat m1') = vsnap (dat m2').
Proof. exact restore_receiver_independent. Qed.
Print Assumptions C07_restore_independent_of_receiver.

(* "makes that runner continue exactly as the original did from that node entry": for a runner m0
   standing at a node entry (what NewDialogueRunner and every jump produce), restoring its snapshot
   into ANY runner m gives a runner that returns, for every subsequent choice sequence and fuel, the
   same elements as m0 does - provided the host behaves the same from there on (same completion
   schedule and commands) and the random stream to come is the same (irrelevant for scripts that
   draw no random numbers).  [iter_next] = successive Next calls. *)
Theorem C07_restore_continues_as_original : forall d m0 m m',
  at_node_entry d m0 -> store_ok (vars (dat m0)) ->
  restore_at d m (take_snapshot (dat m0)) = (true, m') -> same_env (dat m) (dat m0) ->
  forall f cs, fst (iter_next d f m' cs) = fst (iter_next d f m0 cs).
Proof. exact restore_continues_as_original. Qed.
Print Assumptions C07_restore_continues_as_original.

(* "runners restored from the same snapshot do not influence one another": whatever states the two
   receivers were in, they continue identically *)
Theorem C07_restored_runners_agree : forall d m1 m2 sn m1' m2',
  restore_at d m1 sn = (true, m1') -> restore_at d m2 sn = (true, m2') -> same_env (dat m1) (dat m2) ->
  forall f cs, fst (iter_next d f m1' cs) = fst (iter_next d f m2' cs).
Proof. exact restored_runners_agree. Qed.

(* underneath both: what a runner does next depends on its continuation, the storer's contents as a
   map, the pending command, the current node, the visit counts, the host's command behaviour and
   the random stream - not on logs, the checkpoint, or the internal layout of the store *)
Theorem C07_next_depends_on_core_state_only : forall d f m1 m2 c, rsim m1 m2 ->
  fst (next d f m1 c) = fst (next d f m2 c) /\ rsim (snd (next d f m1 c)) (snd (next d f m2 c)).
Proof. exact next_sim. Qed.

Theorem C07_snapshot_after_restore : forall d m sn m', restore_at d m sn = (true, m') ->
  take_snapshot (dat m') = sn.
Proof. exact snapshot_after_restore. Qed.
Print Assumptions C07_snapshot_after_restore.

Theorem C07_restore_unknown_node_changes_nothing : forall d m sn, find_node d (snode sn) = None ->
  restore_at d m sn = (false, m).
Proof. exact restore_unknown_node. Qed.
Print Assumptions C07_restore_unknown_node_changes_nothing.

Theorem C07_checkpoint_taken_at_node_entry : forall d e s b s', exec_jump d e s = (Some b, s') ->
  vsnap s' = st_values (vars s') /\ exists n, find_node d (cur s') = Some n /\ b = body n.
Proof. exact jump_takes_checkpoint. Qed.
Print Assumptions C07_checkpoint_taken_at_node_entry.

Theorem C07_assignments_do_not_touch_the_checkpoint : forall x op e s,
  snap_fields (snd (exec_set x op e s)) = snap_fields s.
Proof. exact snapshot_only_changes_at_jumps_set. Qed.
Print Assumptions C07_assignments_do_not_touch_the_checkpoint.

(* ---------- self-containment, on the heap-explicit model (Yarn/SnapHeap.v) ----------
   Go maps are references; here every map is an object in a heap, runners and snapshots hold
   addresses, every make+copy loop of Snapshot / RestoreAt / GetValues is an allocation. *)
From YS Require Import Yarn.SnapHeap Proofs.SnapHeapProofs.

(* in every configuration reachable by any history of runner creations, assignments, jumps,
   snapshots, restores and host edits of snapshots, no map is shared: by two runners, two
   snapshots, a runner and a snapshot *)
Theorem C07_no_map_is_ever_shared : forall ops, Inv (fold_left step ops init_config).
Proof. exact inv_reachable. Qed.
Print Assumptions C07_no_map_is_ever_shared.

(* nothing any runner does afterwards (and no edit of another snapshot) changes a snapshot *)
Theorem C07_snapshot_is_self_contained : forall ops c k s,
  Inv c -> nth_error (snaps c) k = Some s -> Forall (fun o => edited o <> Some k) ops ->
  nth_error (snaps (fold_left step ops c)) k = Some s /\
  snap_content (fold_left step ops c) s = snap_content c s.
Proof. exact snapshot_never_changes. Qed.
Print Assumptions C07_snapshot_is_self_contained.

(* nothing other runners do, and nothing the host does to a snapshot (also the one a runner was
   restored from), changes a runner: runners restored from the same snapshot do not influence one
   another *)
Theorem C07_runners_do_not_influence_one_another : forall ops c k r,
  Inv c -> nth_error (runners c) k = Some r -> Forall (fun o => actor o <> Some k) ops ->
  nth_error (runners (fold_left step ops c)) k = Some r /\
  runner_view (fold_left step ops c) r = runner_view c r.
Proof. exact runner_never_changed_by_others. Qed.
Print Assumptions C07_runners_do_not_influence_one_another.

(* RestoreAt installs exactly the snapshot's contents (the expressions of the value-based
   restore_at), and a snapshot taken immediately afterwards equals the restored one *)
Theorem C07_restore_installs_the_snapshot : forall c i j r s,
  Inv c -> nth_error (runners c) i = Some r -> nth_error (snaps c) j = Some s ->
  exists r', nth_error (runners (op_restore c i j)) i = Some r' /\
    runner_view (op_restore c i j) r' =
      {| rc_store := fold_left (fun st kv => st_set st (fst kv) (snd kv)) (svars (snap_content c s)) empty_store;
         rc_visits := svisits (snap_content c s); rc_vsnap := svars (snap_content c s); rc_cur := snode (snap_content c s) |}.
Proof. exact restore_installs_snapshot. Qed.

Theorem C07_snapshot_taken_after_restore_equals_it : forall c i j r s,
  Inv c -> nth_error (runners c) i = Some r -> nth_error (snaps c) j = Some s ->
  let c' := op_snapshot (op_restore c i j) i in
  exists s', nth_error (snaps c') (length (snaps c)) = Some s' /\ snap_content c' s' = snap_content c s.
Proof. exact snapshot_after_restore_equals. Qed.
Print Assumptions C07_snapshot_taken_after_restore_equals_it.
