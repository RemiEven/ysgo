(* C08 - layout never changes meaning.
   Partial: proved for the hand-written indentation wrapper (the only hand-written code between the
   text and the parse tree that looks at layout): the token stream depends only on the order type of
   the indentation widths, and blank / whitespace-only / comment-only lines are transparent.  That
   the generated lexer and parser treat CRLF, redundant parentheses, operator spellings and blanks
   inside commands alike is observed by the correspondence family 'layout' (every program under 11
   renderings, parsed dialogues and traces compared); known finding D10 (several blanks after
   <<jump) is in the lexer grammar. *)
From Coq Require Import List ZArith.
From YS Require Import Base.Sexp Syntax.Indent Proofs.IndentProofs.
Import ListNotations.

(* the protocol delivers the list-level stream (C20), so statements about [wrap] are statements
   about what the parser receives *)
Theorem C08_parser_receives_wrap : forall ts fuel out,
  pull fuel (linit false ts) = Some out -> wrap ts [] = Some out.
Proof. exact pull_sound. Qed.
Print Assumptions C08_parser_receives_wrap.

(* indentation width and kind: two base streams whose NEWLINE widths differ by a strictly monotone
   re-labelling (1 blank / 8 blanks / tabs per level, any unit) give the same token stream *)
Theorem C08_only_the_order_of_widths_matters : forall (phi : nat -> nat),
  phi 0 = 0 -> (forall a b, a < b <-> phi a < phi b) ->
  forall ts1 ts2, Forall2 (rel_btok phi) ts1 ts2 -> forall st, wrap ts2 (map phi st) = wrap ts1 st.
Proof. intros phi H0 Hm. exact (wrap_order_type phi H0 Hm). Qed.
Print Assumptions C08_only_the_order_of_widths_matters.

(* blank, whitespace-only and comment-only lines, at any indentation, anywhere: only a NEWLINE
   token (hidden channel in the body of a node) is added *)
Theorem C08_blank_and_comment_lines_are_transparent : forall pre post st text,
  option_map (filter visible) (wrap (pre ++ BNL text true :: post) st) =
  option_map (filter visible) (wrap (pre ++ post) st).
Proof. exact skip_transparent. Qed.
Print Assumptions C08_blank_and_comment_lines_are_transparent.

(* non-vacuity: 2 blanks per level with a blank line inside the block vs one tab per level *)
Example C08_example :
  option_map (filter visible)
    (wrap [BOther 20; BNL [10;32;32]%N false; BOther 20; BNL [10]%N true; BNL [10;32;32]%N false; BOther 20;
           BNL [10]%N false; BOther 13] []) =
  option_map (filter visible)
    (wrap [BOther 20; BNL [10;9]%N false; BOther 20; BNL [10;9]%N false; BOther 20; BNL [10]%N false; BOther 13] []).
Proof. vm_compute. reflexivity. Qed.

(* redundant parentheses: the expression rule of the generated parser (Syntax/ExprParser.v, over the
   precedence table extracted from the Go source by tools/gen_exprtable.py) reads every admissible
   way of writing an expression - parentheses where the table requires them, and anywhere else - as
   the same tree; in particular minimal and maximal parenthesisation agree.  (Operator spellings are
   the lexer's: one token type per operator, observed by families layout and exprparse.) *)
From YS Require Import Yarn.Ast Generated.ExprTable Syntax.ExprParser Proofs.ExprParserProofs.

Theorem C08_redundant_parentheses_never_matter : forall e ts1 ts2 k1 k2,
  Prints level right_prec neg_operand_prec not_operand_prec 0 e ts1 k1 ->
  Prints level right_prec neg_operand_prec not_operand_prec 0 e ts2 k2 ->
  eventually (fun fuel => ys_parse_expr fuel 0 ts1) (e, []) /\
  eventually (fun fuel => ys_parse_expr fuel 0 ts2) (e, []).
Proof.
  intros e ts1 ts2 k1 k2 H1 H2.
  split; [exact (prints_parse _ _ _ _ generated_table_wf e ts1 k1 H1)|exact (prints_parse _ _ _ _ generated_table_wf e ts2 k2 H2)].
Qed.
Print Assumptions C08_redundant_parentheses_never_matter.

Theorem C08_minimal_and_maximal_parentheses_agree : forall e,
  eventually (fun fuel => ys_parse_expr fuel 0 (print_min level right_prec neg_operand_prec not_operand_prec 0 e)) (e, []) /\
  eventually (fun fuel => ys_parse_expr fuel 0 (paren (print_full e))) (e, []).
Proof.
  intros e. split; [exact (parse_print_min _ _ _ _ generated_table_wf e)|exact (parse_print_full _ _ _ _ generated_table_wf e)].
Qed.
Print Assumptions C08_minimal_and_maximal_parentheses_agree.

(* indentation, statement level: the statement rules of the generated parser together with the listener
   (Syntax/StmtParser.v, over the token table extracted from the Go source by tools/gen_tokentable.py)
   read every written program back as the dialogue it stands for - and an INDENT ... DEDENT block
   around ANY run of statements, at any depth, changes nothing ([meaning] of a block is the meaning of
   the statements in it): the width of an indentation never reaches the parser, and whether a body is
   indented at all does not matter to it.  [er] is any way of writing expressions that the expression
   parser reads back (redundant parentheses and operator spellings: the theorems above and C02).
   Hypotheses on the written program ([wfs]): texts of a line are non-empty and not adjacent (the
   listener merges adjacent TEXT tokens); an option group not followed by its blank-line token is not
   directly followed by another option, by that token, or - when its last option has no body - by an
   indented block (each of these would be read as part of the group: that is the grammar, not a
   defect); a generic command is not directly followed by a hashtag. *)
From YS Require Import Generated.TokenTable Syntax.StmtParser Proofs.StmtParserProofs.

Theorem C08_written_statements_are_read_back_whatever_is_indented :
  forall (er : expr -> list (kind * str)) (ewf : expr -> Prop),
  (forall e, Forall is_etok (er e)) ->
  (forall e, ewf e -> parse_expression (fst (take_etoks (er e))) = Some e) ->
  (forall f args, ewf (ECall f args) -> parse_call_toks (fst (take_etoks (er (ECall f args)))) = Some (f, args)) ->
  (forall v, ewf v -> (exists a, v = expr_of_atom a) \/ (exists f args, v = ECall f args) ->
             parse_value_toks (fst (take_etoks (er v))) = Some v) ->
  forall ws rest fuel,
    wfs er ewf ws (hd_kind rest) -> starts_statement rest = false -> wssize ws <= fuel ->
    parse_stmts fuel (pws er ws ++ rest) = Some (meaning ws, rest).
Proof. exact parse_written. Qed.
Print Assumptions C08_written_statements_are_read_back_whatever_is_indented.

Theorem C08_an_indented_block_is_the_statements_in_it : forall ws, meaning [WBlock ws] = meaning ws.
Proof. intros ws. cbn [meaning]. rewrite meaning1_block. apply app_nil_r. Qed.

(* non-vacuity 1: the hypotheses on [er] are satisfiable for a whole class of programs - those whose
   expressions are variables *)
Definition er_var (e : expr) : list (kind * str) := match e with EVar x => [(K_VAR_ID, 36%N :: x)] | _ => [] end.
Definition ewf_var (e : expr) : Prop := exists x, e = EVar x.
Example C08_expression_writer_exists :
  (forall e, Forall is_etok (er_var e)) /\
  (forall e, ewf_var e -> parse_expression (fst (take_etoks (er_var e))) = Some e) /\
  (forall f args, ewf_var (ECall f args) -> parse_call_toks (fst (take_etoks (er_var (ECall f args)))) = Some (f, args)) /\
  (forall v, ewf_var v -> (exists a, v = expr_of_atom a) \/ (exists f args, v = ECall f args) ->
             parse_value_toks (fst (take_etoks (er_var v))) = Some v).
Proof.
  Local Transparent take_etoks parse_expression.
  repeat split.
  - intros e. destruct e; cbn; repeat constructor. unfold is_etok. cbn. discriminate.
  - intros e [x ->]. reflexivity.
  - intros f args [x H]. discriminate H.
  - intros v [x ->] _. reflexivity.
Qed.

(* non-vacuity 2: a concrete program - an option group inside an if inside an indented block, an
   elseif and an else, a declaration with a type, a command with an inline expression - as the tokens
   of the real lexer's vocabulary; the model reads the dialogue off it *)
Definition ex_tokens : list (kind * str) :=
  [(K_ID, STR "title"); (K_HEADER_DELIMITER, STR ": "); (K_REST_OF_LINE, STR "Start"); (K_BODY_START, STR "---");
   (K_INDENT, []);
   (K_COMMAND_START, []); (K_COMMAND_IF, []); (K_VAR_ID, STR "$a"); (K_OPERATOR_LOGICAL_AND, []); (K_KEYWORD_TRUE, []); (K_COMMAND_END, []);
   (K_INDENT, []);
   (K_SHORTCUT_ARROW, []); (K_TEXT, STR "O"); (K_TEXT, STR "ne"); (K_NEWLINE, []);
   (K_INDENT, []); (K_TEXT, STR "inner "); (K_EXPRESSION_START, []); (K_VAR_ID, STR "$a"); (K_EXPRESSION_END, []); (K_NEWLINE, []); (K_DEDENT, []);
   (K_SHORTCUT_ARROW, []); (K_TEXT, STR "Two"); (K_HASHTAG, []); (K_HASHTAG_TEXT, STR "t"); (K_NEWLINE, []);
   (K_DEDENT, []);
   (K_COMMAND_START, []); (K_COMMAND_ELSEIF, []); (K_VAR_ID, STR "$b"); (K_COMMAND_END, []);
   (K_COMMAND_START, []); (K_COMMAND_JUMP, []); (K_ID, STR "Start"); (K_COMMAND_END, []);
   (K_COMMAND_START, []); (K_COMMAND_ELSE, []); (K_COMMAND_END, []);
   (K_COMMAND_START, []); (K_COMMAND_TEXT, STR "walk left "); (K_COMMAND_EXPRESSION_START, []); (K_VAR_ID, STR "$a"); (K_EXPRESSION_END, []);
   (K_COMMAND_TEXT_END, []);
   (K_COMMAND_START, []); (K_COMMAND_ENDIF, []); (K_COMMAND_END, []);
   (K_DEDENT, []);
   (K_COMMAND_START, []); (K_COMMAND_DECLARE, []); (K_VAR_ID, STR "$z"); (K_OPERATOR_ASSIGNMENT, []); (K_KEYWORD_FALSE, []);
   (K_EXPRESSION_AS, []); (K_FUNC_ID, STR "bool"); (K_COMMAND_END, []);
   (K_BODY_END, STR "==="); (K_EOF, [])].

Example C08_example_program_is_read :
  parse_dialogue ex_tokens =
  Some [{| headers := [(STR "title", STR "Start")];
           body := [SIf [(EBin OAnd (EVar (STR "a")) (EVal (VBool true)),
                          [SOpts [({| ltext := [TText (STR "One")]; lcond := None; ltags := [] |},
                                   [SLine {| ltext := [TText (STR "inner "); TExpr (EVar (STR "a"))]; lcond := None; ltags := [] |}]);
                                  ({| ltext := [TText (STR "Two")]; lcond := None; ltags := [STR "t"] |}, [])]]);
                         (EVar (STR "b"), [SJump (EVal (VStr (STR "Start")))]);
                         (EVal (VBool true), [SCmd [EVal (VStr (STR "walk")); EVal (VStr (STR "left")); EVar (STR "a")]])];
                    SDeclare (STR "z") (EVal (VBool false))] |}].
Proof. vm_compute. reflexivity. Qed.

(* whole scripts: file-level hashtags, one or more nodes (each with at least one header - a key with or
   without a value - and a well-formed written body), end of input.  The model of tree.FromReader accepts
   every such token sequence and returns the dialogue it stands for: headers as a map (last value of a key,
   in key order), bodies by [meaning].  No fuel appears: the fuel the model gives its parsers
   (2 * tokens + 4 per body, tokens + 1 for the node list) is proved sufficient (size_tokens). *)
From YS Require Import Syntax.CommandText Proofs.StmtParserTop.

Theorem C08_every_written_script_is_loaded :
  forall (er : expr -> list (kind * str)) (ewf : expr -> Prop),
  (forall e, Forall is_etok (er e)) ->
  (forall e, ewf e -> parse_expression (fst (take_etoks (er e))) = Some e) ->
  (forall f args, ewf (ECall f args) -> parse_call_toks (fst (take_etoks (er (ECall f args)))) = Some (f, args)) ->
  (forall v, ewf v -> (exists a, v = expr_of_atom a) \/ (exists f args, v = ECall f args) ->
             parse_value_toks (fst (take_etoks (er v))) = Some v) ->
  forall tags ns, ns <> [] -> Forall (node_ok er ewf) ns ->
    from_reader 0 (p_script er tags ns) = Some (map mean_node ns).
Proof. exact written_script_is_loaded. Qed.
Print Assumptions C08_every_written_script_is_loaded.

(* non-vacuity: a two-node script over the variable-only expression writer meets the hypotheses, and the
   theorem's conclusion computes *)
Definition ex_line (t : str) : line := {| ltext := [TText t]; lcond := None; ltags := [] |}.
Definition ex_nodes : list wnode :=
  [{| wheaders := [(STR "title", Some (STR "Start")); (STR "tags", None)];
      wbody := [WLine (ex_line (STR "hi"));
                WBlock [WOpts [(ex_line (STR "a"), [WSet (STR "x") SAssign (EVar (STR "y"))]); (ex_line (STR "b"), [])] true;
                        WBlock [WJumpName (STR "Other")]]] |};
   {| wheaders := [(STR "title", Some (STR "Other"))];
      wbody := [WIf (EVar (STR "c")) [WLine (ex_line (STR "then"))] [(EVar (STR "d"), [])] (Some [WCmd [RText (STR "stop")]])] |}].
Example C08_example_script_hypotheses : Forall (node_ok er_var ewf_var) ex_nodes.
Proof.
  assert (Hl : forall t, t <> [] -> line_ok ewf_var (ex_line t)).
  { intros t Ht. repeat split; cbn; [discriminate|]. repeat constructor. exact Ht. }
  repeat constructor;
    repeat first [ apply Hl; discriminate | exact I | discriminate | eexists; reflexivity | constructor
                 | split | intros ? H; inversion H; subst | left; reflexivity | cbn; discriminate ].
Qed.
Example C08_example_script_is_loaded :
  from_reader 0 (p_script er_var [STR "filetag"] ex_nodes) = Some (map mean_node ex_nodes).
Proof. vm_compute. reflexivity. Qed.

(* ... and with the expressions written as tokens of the real lexer's vocabulary (Proofs/ExprTokens.v:
   minimal parentheses over the generated precedence table, `$x`, `"s"`, digits, true / false / null),
   nothing is left as a parameter.  Proofs/ExprFuelProofs.v makes the fuel of the expression parser
   explicit (2 * tokens + 1 suffice; the model gives 4 * tokens + 4).  The one condition on expressions:
   the text written for a number is read back as that number ([ewf_min]: num_ok on every numeral -
   number(string(x)) = x is not proved in general, it is checked per literal by computation). *)
From YS Require Import Proofs.ExprTokens.

Theorem C08_every_written_script_is_loaded_real_tokens : forall tags ns,
  ns <> [] -> Forall (node_ok er_min ewf_min) ns ->
  from_reader 0 (p_script er_min tags ns) = Some (map mean_node ns).
Proof. exact written_script_tokens_are_loaded. Qed.
Print Assumptions C08_every_written_script_is_loaded_real_tokens.

(* non-vacuity: a node whose line interpolates a variable and whose option is guarded by a call meets the
   hypotheses (no numerals: nothing is asked of the expressions) *)
Definition ex_nodes3 : list wnode :=
  [{| wheaders := [(STR "title", Some (STR "Start"))];
      wbody := [WLine {| ltext := [TText (STR "hi "); TExpr (EVar (STR "x"))]; lcond := Some (ENot (EVar (STR "b"))); ltags := [] |};
                WSet (STR "x") SAssign (EBin OAdd (EVar (STR "x")) (EVal (VStr (STR "!"))))] |}].
Example C08_example_script3_hypotheses : Forall (node_ok er_min ewf_min) ex_nodes3.
Proof.
  assert (H1 : ewf_min (EVar (STR "x"))) by (unfold ewf_min; cbn [print_min]; constructor; [exact I|constructor]).
  assert (H2 : ewf_min (ENot (EVar (STR "b")))) by (unfold ewf_min; cbn [print_min]; constructor; [exact I|constructor; [exact I|constructor]]).
  assert (H3 : ewf_min (EBin OAdd (EVar (STR "x")) (EVal (VStr (STR "!"))))).
  { apply ewf_min_no_numbers. intros n Ht. vm_compute in Ht. repeat (destruct Ht as [Ht|Ht]; [discriminate Ht|]). exact Ht. }
  constructor; [|constructor]. split; [discriminate|]. cbn [wbody].
  apply wfs_cons; [apply wf_line|apply wfs_cons; [apply wf_set; exact H3|apply wfs_nil]].
  split; [discriminate|]. split; [constructor; [discriminate|constructor; [exact H1|constructor]]|]. split; [exact I|exact H2].
Qed.
Example C08_example_script3_is_loaded :
  from_reader 0 (p_script er_min [] ex_nodes3) = Some (map mean_node ex_nodes3).
Proof. apply C08_every_written_script_is_loaded_real_tokens; [discriminate|exact C08_example_script3_hypotheses]. Qed.
