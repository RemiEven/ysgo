(* C03 - variables: (compound) assignment, type stability, storer is the source of truth. *)
From Coq Require Import List ZArith.
From YS Require Import Base.Sexp Num.F64 Yarn.Ast Yarn.Value Yarn.Eval Yarn.Runner Spec.SetSpec Proofs.SetProofs Proofs.StorerProofs.
Import ListNotations.

(* set / declare store what the table SetSpec.set_spec says, with exactly one write *)
Theorem C03_set_matches_spec : forall x op e s,
  let '(o, s1) := eval_in s e in
  match o with
  | Val v =>
      match set_spec (st_get (vars s1) x) op v with
      | Some r => exec_set x op e s = (true, upd_vars s1 (st_set (vars s1) x r) (sevent_of x r))
      | None => exec_set x op e s = (false, s1)
      end
  | _ => exec_set x op e s = (false, s1)
  end.
Proof. exact exec_set_spec. Qed.
Print Assumptions C03_set_matches_spec.

Theorem C03_failed_statement_changes_nothing : forall x op e s s', exec_set x op e s = (false, s') ->
  vars s' = vars s /\ slog s' = slog s.
Proof. exact failed_set_frame. Qed.
Print Assumptions C03_failed_statement_changes_nothing.

Theorem C03_one_write_per_statement : forall x op e s s', exec_set x op e s = (true, s') ->
  exists r, slog s' = sevent_of x r :: slog s /\ vars s' = st_set (vars s) x r.
Proof. exact ok_set_one_write. Qed.
Print Assumptions C03_one_write_per_statement.

Theorem C03_type_stable : forall p op v r, set_spec (Some p) op v = Some r -> same_type p r = true.
Proof. exact set_spec_type_stable. Qed.
Print Assumptions C03_type_stable.

Theorem C03_compound_on_unknown_is_error : forall op v, op <> SAssign -> set_spec None op v = None.
Proof. exact compound_unknown_is_error. Qed.
Print Assumptions C03_compound_on_unknown_is_error.

(* the default storer never holds a name under two types: after any sequence of writes ... *)
Theorem C03_single_type_after_any_writes : forall ws,
  single (fold_left (fun st kv => st_set st (fst kv) (snd kv)) ws empty_store).
Proof. exact single_after_writes. Qed.
Print Assumptions C03_single_type_after_any_writes.

(* ... and across anything a runner does *)
Theorem C03_single_type_across_next : forall d fm m c,
  single (vars (dat m)) -> single (vars (dat (snd (next d fm m c)))).
Proof. exact next_single. Qed.
Print Assumptions C03_single_type_across_next.

(* GetValue and GetValues agree on every name, present or absent: for every store built by writes
   (scripts, host, RestoreAt all write through the Set calls), and across anything a runner does *)
Theorem C03_reads_agree_after_any_writes : forall ws k,
  let st := fold_left (fun st kv => st_set st (fst kv) (snd kv)) ws empty_store in
  aget (st_values st) k = st_get st k.
Proof. exact get_values_agrees_after_writes. Qed.
Print Assumptions C03_reads_agree_after_any_writes.

Theorem C03_reads_agree_across_next : forall d fm m c k, store_ok (vars (dat m)) ->
  let st := vars (dat (snd (next d fm m c))) in aget (st_values st) k = st_get st k.
Proof. exact get_values_agrees_across_next. Qed.
Print Assumptions C03_reads_agree_across_next.

(* ... and the invariant is needed: a name under two types (the defect D2 of the pinned tree) makes
   the two reads disagree *)
Example C03_reads_disagree_without_invariant :
  let st := {| nums := [(STR "x", of_Z 1)]; bools := []; strs := [(STR "x", STR "s")] |} in
  st_get st (STR "x") = Some (VNum (of_Z 1)) /\ aget (st_values st) (STR "x") = Some (VStr (STR "s")).
Proof. exact get_values_needs_single. Qed.

(* reads go through the storer: what the host wrote last is what the script reads next *)
Theorem C03_host_write_visible : forall s k v, fst (eval_in (host_write s k v) (EVar k)) = Val v.
Proof. exact host_write_visible. Qed.
Print Assumptions C03_host_write_visible.

Theorem C03_write_then_read : forall st k v, st_get (st_set st k v) k = Some v.
Proof. exact st_get_set. Qed.
Print Assumptions C03_write_then_read.

(* non-vacuity: string += appends on the right; %= is the floating remainder *)
Example C03_string_append :
  set_spec (Some (VStr (STR "ab"))) SAddEq (VStr (STR "cd")) = Some (VStr (STR "abcd")).
Proof. reflexivity. Qed.
Example C03_modulo :
  option_map (fun v => match v with VNum n => to_bits n | _ => 0%Z end)
             (set_spec (Some (VNum (of_Z 7))) SModEq (VNum (of_Z 4))) = Some (to_bits (of_Z 3)).
Proof. vm_compute. reflexivity. Qed.
