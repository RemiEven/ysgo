(* C11 - visited / visited_count count completed visits of tracked nodes only. *)
From Coq Require Import List ZArith.
From YS Require Import Base.Sexp Num.F64 Yarn.Ast Yarn.Eval Yarn.Runner Proofs.VisitProofs.
Import ListNotations.
Local Open Scope Z_scope.

(* the invariant: for every name n,
     count(n) = (count at the last restore) + #{successful jumps since then that left n}   if n is a tracked node
     count(n) = (count at the last restore)                                              otherwise
   [jlog] is the (ghost) list of nodes left by successful jumps; failed jumps are not in it *)
Theorem C11_invariant_across_next : forall d fm m c, VInv d (dat m) -> VInv d (dat (snd (next d fm m c))).
Proof. exact next_vinv. Qed.
Print Assumptions C11_invariant_across_next.

Theorem C11_invariant_initially : forall d init stream sc cmds m,
  new_runner d init stream sc cmds = Some m -> VInv d (dat m).
Proof. exact new_runner_vinv. Qed.
Print Assumptions C11_invariant_initially.

(* every history of Next calls and restores (successful or not) *)
Theorem C11_invariant_across_histories : forall d fuel ops m,
  VInv d (dat m) -> VInv d (dat (fold_left (hstep d fuel) ops m)).
Proof. exact history_vinv. Qed.
Print Assumptions C11_invariant_across_histories.

(* what scripts read *)
Theorem C11_visited_count_reads_the_counter : forall v n e,
  call_builtin v (STR "visited_count") [VStr n] e = Some (Val (Some (VNum (of_Z (vget (rvisits v) n)))), e).
Proof. exact visited_count_reads. Qed.
Theorem C11_visited_iff_positive : forall v n e,
  call_builtin v (STR "visited") [VStr n] e = Some (Val (Some (VBool (0 <? vget (rvisits v) n))), e).
Proof. exact visited_iff_positive. Qed.
Print Assumptions C11_visited_iff_positive.

Theorem C11_untracked_never_counts : forall d s n, VInv d s -> tracked d n = false ->
  vget (visits s) n = vget (vbase s) n.
Proof. exact untracked_never_counts. Qed.
Theorem C11_non_node_never_counts : forall d s n, VInv d s -> find_node d n = None ->
  vget (visits s) n = vget (vbase s) n.
Proof. exact non_node_never_counts. Qed.
Theorem C11_counts_never_decrease : forall d fm m c n, VInv d (dat m) ->
  vget (visits (dat m)) n <= vget (visits (dat (snd (next d fm m c)))) n.
Proof. intros d fm m c n _. apply counts_monotone. Qed.
Print Assumptions C11_counts_never_decrease.
