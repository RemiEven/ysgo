(* C12 - the end of the dialogue is absorbing.  Property theorems only. *)
From Coq Require Import List ZArith.
From YS Require Import Base.Sexp Yarn.Ast Yarn.Value Yarn.Runner Proofs.FlowProofs.
Import ListNotations.

(* whichever way the end was reached (empty continuation, or <<stop>> at any depth with statements
   remaining), the next call - any argument, any fuel - reports the end again and returns the
   SAME state: no variable, host log, storer log, visit count, RNG or command changes *)
Theorem C12_end_absorbing : forall d fm m c m', next d fm m c = (NEnd, m') ->
  forall fm' c', next d (S fm') m' c' = (NEnd, m').
Proof. exact end_absorbing. Qed.
Print Assumptions C12_end_absorbing.

(* any number of further calls *)
Theorem C12_end_forever : forall d fm m c m', next d fm m c = (NEnd, m') ->
  forall fm' cs, iter_next d (S fm') m' cs = (map (fun _ => NEnd) cs, m').
Proof. exact end_forever. Qed.
Print Assumptions C12_end_forever.

(* the state in which the end is reported has nothing pending at all *)
Theorem C12_end_state : forall d fm m c m', next d fm m c = (NEnd, m') ->
  stack m' = [] /\ last_opts m' = None /\ pending (dat m') = None.
Proof. exact next_end_state. Qed.
Print Assumptions C12_end_state.

(* non-vacuity: <<stop>> inside an option body with statements after it *)
Local Open Scope string_scope.
Definition ln (t : String.string) : stmt :=
  SLine {| ltext := [TText (str_of_string t)]; lcond := None; ltags := [] |}.
Definition stop_dialogue : dialogue :=
  [ {| headers := [(STR "title", STR "A")];
       body := [SOpts [({| ltext := [TText (STR "o")]; lcond := None; ltags := [] |},
                        [ln "x"; SCmd [EVal (VStr (STR "stop"))]; ln "y"])];
                ln "z"] |} ].
Example C12_example :
  match new_runner stop_dialogue empty_store [] [] [] with
  | Some m => match fst (iter_next stop_dialogue 50 m [0; 0; 0; 3; -1; 0]%Z) with
              | [NElem (EOpts _ _); NElem (ELine _ _); NEnd; NEnd; NEnd; NEnd] => true
              | _ => false
              end
  | None => false
  end = true.
Proof. vm_compute. reflexivity. Qed.
