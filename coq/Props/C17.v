(* C17 - custom commands receive exactly the arguments written in the script.
   Partial: that a generic command's text reaches the listener as COMMAND_TEXT tokens and inline
   expressions (for names that merely begin with a keyword too) is a fact about the generated ANTLR
   lexer, observed by the correspondence family 'cmdargs'; names beginning with else / endif /
   endenum are the known finding D20.  Dispatch (once, stop never dispatched, unknown names are
   errors) is C10's/C06's theorems. *)
From Coq Require Import List ZArith.
From YS Require Import Base.Sexp Num.F64 Num.Decimal Yarn.Ast Yarn.Eval Yarn.Runner Syntax.CommandText Proofs.CommandProofs Proofs.SafetyProofs.
Import ListNotations.

(* classification of a word *)
Theorem C17_true_false_are_booleans :
  value_from_command_text (STR "true") = VBool true /\ value_from_command_text (STR "false") = VBool false.
Proof. exact (conj classify_true classify_false). Qed.
Theorem C17_decimal_literals_are_numbers : forall w n,
  str_eqb w (STR "true") = false -> str_eqb w (STR "false") = false ->
  is_decimal_literal w = true -> parse_float w = Some n -> value_from_command_text w = VNum n.
Proof. exact classify_number. Qed.
Theorem C17_every_other_word_is_a_string : forall w,
  str_eqb w (STR "true") = false -> str_eqb w (STR "false") = false ->
  is_decimal_literal w = false -> value_from_command_text w = VStr w.
Proof. exact classify_string. Qed.
Print Assumptions C17_every_other_word_is_a_string.

(* words separated by any non-empty whitespace, with any whitespace around, are the arguments, in order *)
Theorem C17_words_are_the_arguments : forall ws seps lead trail,
  Forall (fun w => no_space w /\ w <> []) ws -> Forall (fun s => all_space s /\ s <> []) seps ->
  length seps = pred (length ws) -> all_space lead -> all_space trail ->
  rearrange [RText (lead ++ join ws seps trail)] [] = map (fun w => EVal (value_from_command_text w)) ws.
Proof. exact command_words. Qed.
Print Assumptions C17_words_are_the_arguments.

(* how the lexer cuts the text into tokens does not matter; an inline expression is an argument of
   its own, in place *)
Theorem C17_token_boundaries_irrelevant : forall a b r acc,
  rearrange (RText a :: RText b :: r) acc = rearrange (RText (a ++ b) :: r) acc.
Proof. exact rearrange_text_tokens. Qed.
Theorem C17_expression_in_place : forall t e r,
  rearrange (RText t :: RExpr e :: r) [] = split_words t ++ e :: rearrange r [].
Proof. exact rearrange_expr_in_place. Qed.
Print Assumptions C17_expression_in_place.

(* dispatch *)
Theorem C17_handler_once_with_arguments : forall s name args,
  str_eqb name (STR "stop") = false -> mem_str name (hcmds s) = true ->
  hlog (fe (snd (exec_command (EVal (VStr name) :: map EVal args) s))) = HCmd name args :: hlog (fe s).
Proof. exact handler_exactly_once. Qed.
Theorem C17_stop_never_dispatched : forall s args,
  exec_command (EVal (VStr (STR "stop")) :: map EVal args) s = (CmdStop, s).
Proof. exact stop_never_dispatched. Qed.
Theorem C17_unregistered_is_error : forall s name args,
  str_eqb name (STR "stop") = false -> mem_str name (hcmds s) = false -> str_eqb name (STR "wait") = false ->
  fst (exec_command (EVal (VStr name) :: map EVal args) s) = CmdErr.
Proof. exact unknown_command_is_error. Qed.
Print Assumptions C17_unregistered_is_error.

Definition show_arg (e : expr) : option (sum (sum Z bool) str) :=
  match e with
  | EVal (VNum n) => Some (inl (inl (to_bits n)))
  | EVal (VBool b) => Some (inl (inr b))
  | EVal (VStr s) => Some (inr s)
  | _ => None
  end.

Example C17_example :
  map show_arg (rearrange [RText (STR "walk"); RText (STR "  3 "); RExpr (EVar (STR "x")); RText (STR "true"); RText (STR " inf ")] [])
  = [Some (inr (STR "walk")); Some (inl (inl (to_bits (of_Z 3)))); None; Some (inl (inr true)); Some (inr (STR "inf"))].
Proof. vm_compute. reflexivity. Qed.
