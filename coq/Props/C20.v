(* C20 - internal queue/stack are exact FIFO/LIFO; indentation tokens are balanced.
   Property theorems only: each is closed by [exact] of a lemma proved elsewhere. *)
From Coq Require Import List ZArith.
From YS Require Import Container.Queue Syntax.Indent Proofs.QueueProofs Proofs.IndentProofs.
Import ListNotations.

(* every operation sequence on the ring buffer - any length, hence any number of growths with the
   head anywhere - returns what a list returns; Dequeue/Peek on empty panic on both sides *)
Theorem C20_queue_refines_fifo : forall (ops : list (qop Z)),
  q_run 0%Z empty_q ops = fifo_run [] ops.
Proof. exact (queue_refines_fifo 0%Z). Qed.
Print Assumptions C20_queue_refines_fifo.

Theorem C20_stack_refines_lifo : forall (ops : list (sop Z)),
  s_run [] ops = lifo_run [] ops.
Proof. exact stack_refines_lifo. Qed.
Print Assumptions C20_stack_refines_lifo.

(* the NextToken protocol (one base token pulled, one queued token returned per call, ring buffer
   in between) hands the parser exactly the list-level stream [wrap], for every base stream *)
Theorem C20_next_token_protocol : forall ts fuel out,
  pull fuel (linit false ts) = Some out -> wrap ts [] = Some out.
Proof. exact pull_sound. Qed.
Print Assumptions C20_next_token_protocol.

(* as many DEDENT as INDENT, never more closed than opened, exactly one EOF, at the end *)
Theorem C20_token_stream_balanced : forall ts fuel out,
  pull fuel (linit false ts) = Some out ->
  count is_indent out = count is_dedent out /\ never_overclosed 0 out = true /\
  exists pre, out = pre ++ [TEOF] /\ ~ In TEOF pre.
Proof. exact token_stream_balanced. Qed.
Print Assumptions C20_token_stream_balanced.

(* and the stream exists for every input whose indentation never mixes tabs and spaces *)
Theorem C20_token_stream_total : forall ts, Forall clean_btok ts ->
  exists out, wrap ts [] = Some out /\
              forall fuel, length out <= fuel -> pull fuel (linit false ts) = Some out.
Proof. exact token_stream_total. Qed.
Print Assumptions C20_token_stream_total.

Theorem C20_empty_input_single_eof : forall ts fuel, pull (S fuel) (linit true ts) = Some [TEOF].
Proof. exact pull_empty_input. Qed.
Print Assumptions C20_empty_input_single_eof.

(* non-vacuity: a wrapped ring buffer across two growths, and a nested indentation stream *)
Example C20_queue_example :
  let ops := [QEnq 1; QEnq 2; QEnq 3; QDeq; QDeq] ++ map QEnq [4;5;6;7;8;9;10;11;12;13;14;15;16;17;18;19;20;21]
             ++ [QSize; QDeq; QPeek] in
  q_run 0 empty_q ops = fifo_run [] ops /\ nth 23 (q_run 0 empty_q ops) RPanic = RSize 19.
Proof. vm_compute. split; reflexivity. Qed.

Example C20_indent_example :
  pull 20 (linit false [BOther 20; BNL [10;32;32]%N false; BOther 20; BNL [10;32;32;32;32]%N false;
                        BOther 20; BNL [10]%N true; BNL [10]%N false; BOther 13])
  = Some [TOther 20; TNL; TIndent; TOther 20; TNL; TIndent; TOther 20; TNL; TNL; TDedent; TDedent;
          TOther 13; TEOF].
Proof. vm_compute. reflexivity. Qed.
