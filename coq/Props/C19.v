(* C19 - numeric and conversion built-ins satisfy their contracts for all numbers.
   Real-number statements through Flocq's B2R; [R_of x] is the real value of the double x.
   Partial: round_places and number(string(x)) = x are not proved
   (the last rests on strconv's shortest round-trip formatter, modelled in Num/Decimal.v and
   validated against Go by the 'fmt'/'parse'/'builtins' families); round_places' strict half-unit
   bound is false of binary64 evaluation (known finding D23). *)
From Coq Require Import Reals List.
From Flocq Require Import Core BinarySingleNaN.
From YS Require Import Base.Sexp Num.F64 Num.Decimal Yarn.Ast Yarn.Value Yarn.Eval Proofs.BuiltinProofs Proofs.DecimalPartProofs.
Import ListNotations.
Local Open Scope R_scope.

(* for EVERY double (no magnitude bound): *)
Theorem C19_floor : forall x, R_of (ffloor x) <= R_of x < R_of (ffloor x) + 1.
Proof. exact floor_spec. Qed.
Theorem C19_ceil : forall x, R_of (fceil x) - 1 < R_of x <= R_of (fceil x).
Proof. exact ceil_spec. Qed.
Theorem C19_integer_truncates_toward_zero : forall x,
  (0 <= R_of x -> R_of (ftrunc x) <= R_of x < R_of (ftrunc x) + 1) /\
  (R_of x <= 0 -> R_of (ftrunc x) - 1 < R_of x <= R_of (ftrunc x)).
Proof. exact integer_spec. Qed.
Theorem C19_round_within_half : forall x, Rabs (R_of (fround x) - R_of x) <= / 2.
Proof. exact round_spec. Qed.
Theorem C19_results_are_integers : forall x,
  exists a b c d : Z, R_of (ffloor x) = IZR a /\ R_of (fceil x) = IZR b /\ R_of (ftrunc x) = IZR c /\ R_of (fround x) = IZR d.
Proof. exact rounding_results_are_integers. Qed.
Print Assumptions C19_results_are_integers.

(* integer(x) + decimal(x) = x, exactly, for EVERY finite double: the fractional part x - trunc(x) is
   itself a double (the subtraction does not round), it has the sign of x and magnitude below 1 *)
Theorem C19_decimal_exact : forall x, is_finite x = true ->
  is_finite (f_decimal x) = true /\ B2R (f_decimal x) = B2R x - IZR (Ztrunc (B2R x)).
Proof. exact decimal_exact. Qed.
Theorem C19_integer_plus_decimal : forall x, is_finite x = true ->
  is_finite (fadd (ftrunc x) (f_decimal x)) = true /\ B2R (fadd (ftrunc x) (f_decimal x)) = B2R x.
Proof. exact integer_plus_decimal. Qed.
Theorem C19_decimal_range : forall x, is_finite x = true ->
  Rabs (B2R (f_decimal x)) < 1 /\ (0 <= B2R x -> 0 <= B2R (f_decimal x)) /\ (B2R x <= 0 -> B2R (f_decimal x) <= 0).
Proof. exact decimal_range. Qed.
Print Assumptions C19_integer_plus_decimal.

(* for finite |x| < 2^52: inc(x) is the least integer greater than x, dec(x) the greatest less *)
Theorem C19_inc : forall x, is_finite x = true -> Rabs (R_of x) < IZR (2 ^ 52) ->
  R_of (f_inc x) = IZR (Zfloor (R_of x) + 1) /\ R_of x < R_of (f_inc x) <= R_of x + 1.
Proof. exact inc_spec. Qed.
Theorem C19_dec : forall x, is_finite x = true -> Rabs (R_of x) < IZR (2 ^ 52) ->
  R_of (f_dec x) = IZR (Zceil (R_of x) - 1) /\ R_of x - 1 <= R_of (f_dec x) < R_of x.
Proof. exact dec_spec. Qed.
Print Assumptions C19_dec.

(* conversions *)
Theorem C19_bool_string_roundtrip : forall v b e,
  call_builtin v (STR "bool") [VStr (to_string (VBool b))] e = Some (Val (Some (VBool b)), e).
Proof. exact bool_string_roundtrip. Qed.
Theorem C19_same_type_identity : forall v e s n b,
  call_builtin v (STR "string") [VStr s] e = Some (Val (Some (VStr s)), e) /\
  call_builtin v (STR "number") [VNum n] e = Some (Val (Some (VNum n)), e) /\
  call_builtin v (STR "bool") [VBool b] e = Some (Val (Some (VBool b)), e).
Proof. exact same_type_identity. Qed.
Theorem C19_bad_bool_string_is_error : forall v s e, parse_bool s = None ->
  call_builtin v (STR "bool") [VStr s] e = Some (Fail, e).
Proof. exact bad_bool_string_is_error. Qed.
Theorem C19_bad_number_string_is_error : forall v s e, parse_float s = None ->
  call_builtin v (STR "number") [VStr s] e = Some (Fail, e).
Proof. exact bad_number_string_is_error. Qed.
Print Assumptions C19_bad_number_string_is_error.

(* known finding D23: the strict half-unit bound of round_places fails in binary64:
   round_places(-3592583614394696, 8) = -3592583614394696.5 *)
Example C19_round_places_strict_refuted :
  to_bits (f_round_places (fneg (of_Z 3592583614394696)) 8) = to_bits (fneg (fadd (of_Z 3592583614394696) (fdiv fone (of_Z 2)))).
Proof. vm_compute. reflexivity. Qed.

(* round_places: what does hold for every finite x and every scale 10^n exact in binary64
   (0 <= n <= 22, x * 10^n below 2^1000): half a unit of the n-th place, plus the two roundings of the
   product and the quotient (u = 2^-53 relative each) and of subnormal results (eta = 2^-1075).
   The strict bound without the rounding terms is false (D23, refuted above). *)
From YS Require Import Proofs.RoundPlacesProofs.
Local Open Scope R_scope.
Theorem C19_round_places_envelope : forall (x : f64) (n : Z),
  is_finite x = true -> (0 <= n <= 22)%Z -> Rabs (B2R x) * IZR (10 ^ n) <= bpow radix2 1000 ->
  is_finite (f_round_places x n) = true /\
  Rabs (B2R (f_round_places x n) - B2R x)
    <= / 2 / IZR (10 ^ n) * (1 + u) + Rabs (B2R x) * (2 * u + u * u) + 3 * eta.
Proof. exact round_places_envelope. Qed.
Print Assumptions C19_round_places_envelope.
