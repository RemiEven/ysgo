(* C06 - running a valid script never panics: script-level faults surface as errors. *)
From Coq Require Import List ZArith.
From YS Require Import Base.Sexp Num.F64 Yarn.Ast Yarn.Value Yarn.Eval Yarn.Runner Proofs.SafetyProofs.
Import ListNotations.

(* for every dialogue (null literals, value-less functions, ill-typed operations, any argument
   values included), state, fuel and every choice that is in range when an option group is
   waiting: Next does not panic *)
Theorem C06_next_no_panic : forall d fm m c, choice_ok m c -> fst (next d fm m c) <> NPanic.
Proof. exact next_no_panic. Qed.
Print Assumptions C06_next_no_panic.

Theorem C06_any_argument_when_not_waiting : forall m c, last_opts m = None -> choice_ok m c.
Proof. exact choice_ok_none. Qed.
Print Assumptions C06_any_argument_when_not_waiting.

(* expression evaluation has no panic outcome at all *)
Theorem C06_eval_no_panic : forall v x e, fst (eval v x e) <> Crash.
Proof. exact eval_no_crash. Qed.
Print Assumptions C06_eval_no_panic.

(* after an error the runner waits for no choice: any further call is within C06_next_no_panic *)
Theorem C06_usable_after_error : forall d fm m c m',
  pending (dat m) = None -> next d fm m c = (NErr, m') -> last_opts m' = None.
Proof. exact after_error_no_choice_pending. Qed.
Print Assumptions C06_usable_after_error.

(* the fault classes are errors *)
Theorem C06_null_is_error : forall v e, eval v ENull e = (Fail, e).
Proof. exact null_is_error. Qed.
Theorem C06_unknown_variable_is_error : forall v x e, st_get (rvars v) x = None -> eval v (EVar x) e = (Fail, e).
Proof. exact unknown_variable_is_error. Qed.
Theorem C06_unknown_function_is_error : forall v f args e,
  call_probe f args e = None -> call_builtin v f args e = None -> call_function v f args e = (Fail, e).
Proof. exact unknown_function_is_error. Qed.
Theorem C06_valueless_function_is_error : forall v args e,
  fst (eval v (ECall (STR "noret") (map EVal args)) e) = Fail.
Proof. exact no_value_function_is_error. Qed.
Theorem C06_dice_out_of_domain_is_error : forall v n e, (to_int64 n <? 1)%Z = true ->
  call_builtin v (STR "dice") [VNum n] e = Some (Fail, e).
Proof. exact dice_out_of_domain_is_error. Qed.
Theorem C06_random_range_empty_is_error : forall v a b e, (to_int64 b <? to_int64 a)%Z = true ->
  call_builtin v (STR "random_range") [VNum a; VNum b] e = Some (Fail, e).
Proof. exact random_range_empty_is_error. Qed.
Theorem C06_unknown_node_is_error : forall d s x, find_node d x = None ->
  fst (exec_jump d (EVal (VStr x)) s) = None.
Proof. exact unknown_node_is_error. Qed.
Theorem C06_unknown_command_is_error : forall s name args,
  str_eqb name (STR "stop") = false -> mem_str name (hcmds s) = false -> str_eqb name (STR "wait") = false ->
  fst (exec_command (EVal (VStr name) :: map EVal args) s) = CmdErr.
Proof. exact unknown_command_is_error. Qed.
Print Assumptions C06_unknown_command_is_error.

(* known finding D7: termination fails on a cycle of jumps that never yields *)
Theorem C06_jump_cycle_diverges_refuted : forall fuel s, pending s = None ->
  fst (next self_jump_dialogue fuel (mk [[SJump (EVal (VStr (STR "A")))]] None s) 0) = NFuel.
Proof. exact jump_cycle_diverges. Qed.
Print Assumptions C06_jump_cycle_diverges_refuted.

(* non-vacuity: dice(0), dice(1e30), dice(NaN) are errors in the model *)
Example C06_dice_examples :
  forall v e, map (fun b => call_builtin v (STR "dice") [VNum (of_bits b)] e)
                  [0; 0x46293E5939A08CEA; 0x7FF8000000000001; 0xC008000000000000]%Z
              = [Some (Fail, e); Some (Fail, e); Some (Fail, e); Some (Fail, e)].
Proof. intros. vm_compute. reflexivity. Qed.
