(* C19, round_places(x, n) = math.Round(x * 10^n) / 10^n in binary64 (base_functions.go, roundPlaces).
   The strict contract "within half a unit of the n-th decimal place" is false in binary64 (known
   finding D23); what holds for every finite x and every scale 10^n that is exact in binary64
   (0 <= n <= 22) is the envelope
        |round_places(x, n) - x|  <=  (1/2) 10^-n (1 + u)  +  |x| (2u + u^2)  +  3 eta,
   u = 2^-53 (one rounding of the product, one of the quotient), eta = 2^-1075 (subnormal results). *)
From Coq Require Import Reals List Bool Psatz.
From Flocq Require Import Core Relative BinarySingleNaN.
From YS Require Import Num.F64 Yarn.Eval Proofs.F64Facts Proofs.BuiltinProofs.
Import ListNotations.
Local Open Scope R_scope.

Definition u : R := / 2 * bpow radix2 (- prec + 1).
Definition eta : R := / 2 * bpow radix2 (3 - emax - prec).

Lemma half_bpow_bounds e : (e < 0)%Z -> 0 < / 2 * bpow radix2 e < 1.
Proof.
  intros H. pose proof (bpow_gt_0 radix2 e). pose proof (bpow_lt radix2 e 0 H) as L.
  change (bpow radix2 0) with 1 in L. lra.
Qed.

Lemma u_pos : 0 < u.
Proof. apply half_bpow_bounds. reflexivity. Qed.
Lemma u_lt_1 : u < 1.
Proof. apply half_bpow_bounds. reflexivity. Qed.
Lemma eta_pos : 0 < eta.
Proof. apply half_bpow_bounds. reflexivity. Qed.
Lemma eta_lt_1 : eta < 1.
Proof. apply half_bpow_bounds. reflexivity. Qed.

Lemma rnd_error (r : R) : Rabs (rnd r - r) <= Rabs r * u + eta.
Proof.
  destruct (error_N_FLT radix2 (3 - emax - prec) prec Hprec (fun z => negb (Z.even z)) r) as (e & h & He & Hh & _ & E).
  unfold round_mode. rewrite E. replace (r * (1 + e) + h - r) with (r * e + h) by ring.
  apply Rle_trans with (1 := Rabs_triang _ _). rewrite Rabs_mult. fold u in He. fold eta in Hh.
  pose proof (Rabs_pos r). nra.
Qed.

(* the three errors put together, in the reals: M is the rounded product X P, R its rounding to an
   integer, Q the rounded quotient R / P *)
Lemma envelope_of_errors X P M R Q : 1 <= P ->
  Rabs (M - X * P) <= Rabs X * P * u + eta -> Rabs (R - M) <= / 2 -> Rabs (Q - R / P) <= Rabs (R / P) * u + eta ->
  Rabs (Q - X) <= / 2 / P * (1 + u) + Rabs X * (2 * u + u * u) + 3 * eta.
Proof.
  intros P1 Em Er Eq.
  assert (I1 : 0 < / P <= 1) by (split; [apply Rinv_0_lt_compat; lra|rewrite <- Rinv_1; apply Rinv_le; lra]).
  pose proof u_pos. pose proof u_lt_1. pose proof eta_pos. pose proof (Rabs_pos X).
  assert (D1 : Rabs (R / P - X) <= / 2 / P + Rabs X * u + eta).
  { replace (R / P - X) with ((R - M) / P + (M - X * P) / P) by (field; lra).
    apply Rle_trans with (1 := Rabs_triang _ _).
    unfold Rdiv at 1 2. rewrite !Rabs_mult, Rabs_inv, (Rabs_pos_eq P) by lra.
    assert (A1 : Rabs (R - M) * / P <= / 2 * / P) by (apply Rmult_le_compat_r; lra).
    assert (A2 : Rabs (M - X * P) * / P <= (Rabs X * P * u + eta) * / P) by (apply Rmult_le_compat_r; lra).
    assert (A3 : (Rabs X * P * u + eta) * / P = Rabs X * u + eta * / P) by (field; lra).
    unfold Rdiv. nra. }
  assert (D2 : Rabs (R / P) <= Rabs X + / 2 / P + Rabs X * u + eta).
  { replace (R / P) with ((R / P - X) + X) by ring. apply Rle_trans with (1 := Rabs_triang _ _). lra. }
  replace (Q - X) with ((Q - R / P) + (R / P - X)) by ring.
  apply Rle_trans with (1 := Rabs_triang _ _).
  assert (HP : 0 < / 2 / P) by (unfold Rdiv; apply Rmult_lt_0_compat; lra).
  nra.
Qed.

(* the general statement: any scale t holding a positive integer p exactly.  The bound 2^1000 on the
   product keeps product and quotient (at most 2^1001) away from overflow *)
Theorem scaled_round_envelope (x t : f64) (p : Z) :
  is_finite x = true -> is_finite t = true -> B2R t = IZR p -> (1 <= p)%Z ->
  Rabs (B2R x) * IZR p <= bpow radix2 1000 ->
  let q := fdiv (fround (fmul x t)) t in
  is_finite q = true /\
  Rabs (B2R q - B2R x) <= / 2 / IZR p * (1 + u) + Rabs (B2R x) * (2 * u + u * u) + 3 * eta.
Proof.
  intros Fx Ft Et Hp Hb q.
  set (X := B2R x) in *. set (P := IZR p) in *.
  assert (P1 : 1 <= P) by (apply IZR_le; exact Hp).
  (* the product m = rnd (X P) *)
  assert (Bm : Rabs (X * P) <= bpow radix2 1000) by (rewrite Rabs_mult, (Rabs_pos_eq P) by lra; exact Hb).
  pose proof (fmul_correct x t Fx Ft) as Cm. rewrite Et in Cm. fold X in Cm.
  destruct Cm as [Mv Mf]; [apply (rnd_lt_emax _ 1000 eq_refl Bm)|]. set (m := fmul x t) in *.
  pose proof (rnd_error (X * P)) as Em. pose proof (rnd_abs_le _ 1000 ltac:(discriminate) Bm) as Bm'. rewrite <- Mv in Em, Bm'.
  rewrite Rabs_mult, (Rabs_pos_eq P) in Em by lra.
  (* math.Round: r within 1/2 of m *)
  pose proof (round_spec m) as Er. unfold R_of in Er.
  assert (Rf : is_finite (fround m) = true) by (unfold fround; rewrite nearbyint_finite; exact Mf).
  set (r := fround m) in *.
  (* the quotient q = rnd (r / P) *)
  assert (Bq : Rabs (B2R r / P) <= bpow radix2 1001).
  { assert (I1 : 0 < / P <= 1) by (split; [apply Rinv_0_lt_compat; lra|rewrite <- Rinv_1; apply Rinv_le; lra]).
    assert (B1000 : 1 <= bpow radix2 1000) by (apply (bpow_le radix2 0); discriminate).
    unfold Rdiv. rewrite Rabs_mult, Rabs_inv, (Rabs_pos_eq P) by lra.
    replace (B2R r) with ((B2R r - B2R m) + B2R m) by ring. pose proof (Rabs_triang (B2R r - B2R m) (B2R m)).
    pose proof (Rabs_pos (B2R r - B2R m + B2R m)). change (bpow radix2 1001) with (2 * bpow radix2 1000). nra. }
  pose proof (fdiv_correct r t Rf) as Cq. rewrite Et in Cq. fold q in Cq.
  destruct Cq as [Dv Df]; [lra|apply (rnd_lt_emax _ 1001 eq_refl Bq)|]. split; [exact Df|].
  pose proof (rnd_error (B2R r / P)) as Eq. rewrite <- Dv in Eq.
  exact (envelope_of_errors X P (B2R m) (B2R r) (B2R q) P1 Em Er Eq).
Qed.

Lemma integral_B2R (x : f64) : is_finite x = true -> feqb x (ftrunc x) = true -> B2R x = IZR (Btrunc x).
Proof.
  intros F E. unfold feqb in E.
  rewrite (Beqb_correct prec emax x (ftrunc x) F) in E by (rewrite <- F; apply nearbyint_finite).
  destruct (Req_bool_spec (B2R x) (B2R (ftrunc x))) as [E'|]; [|discriminate].
  rewrite E' at 1. change (B2R (ftrunc x)) with (R_of (ftrunc x)). rewrite trunc_value, trunc_R. reflexivity.
Qed.

(* the scales 10^0 .. 10^22 are exact: checked on the model's Pow10, one by one *)
Definition scale_ok (k : nat) : bool :=
  let x := pow10 (Z.of_nat k) in
  is_finite x && feqb x (ftrunc x) && (Btrunc x =? 10 ^ Z.of_nat k)%Z.

Lemma scales_ok : forallb scale_ok (seq 0 23) = true.
Proof. vm_compute. reflexivity. Qed.

Lemma pow10_exact (n : Z) : (0 <= n <= 22)%Z ->
  is_finite (pow10 n) = true /\ B2R (pow10 n) = IZR (10 ^ n).
Proof.
  intros Hn.
  assert (I : In (Z.to_nat n) (seq 0 23)) by (apply in_seq; lia).
  pose proof (proj1 (forallb_forall scale_ok (seq 0 23)) scales_ok _ I) as H.
  unfold scale_ok in H. rewrite Z2Nat.id in H by lia.
  apply andb_true_iff in H as [[H1 H2]%andb_true_iff H3%Z.eqb_eq]. split; [exact H1|]. rewrite (integral_B2R _ H1 H2), H3. reflexivity.
Qed.

Theorem round_places_envelope (x : f64) (n : Z) :
  is_finite x = true -> (0 <= n <= 22)%Z -> Rabs (B2R x) * IZR (10 ^ n) <= bpow radix2 1000 ->
  is_finite (f_round_places x n) = true /\
  Rabs (B2R (f_round_places x n) - B2R x)
    <= / 2 / IZR (10 ^ n) * (1 + u) + Rabs (B2R x) * (2 * u + u * u) + 3 * eta.
Proof.
  intros Fx Hn Hb. destruct (pow10_exact n Hn) as [Ft Et].
  unfold f_round_places.
  apply (scaled_round_envelope x (pow10 n) (10 ^ n) Fx Ft Et); [|exact Hb].
  assert (0 < 10 ^ n)%Z by (apply Z.pow_pos_nonneg; lia). lia.
Qed.
