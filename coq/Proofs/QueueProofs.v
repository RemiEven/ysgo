(* The ring buffer refines a FIFO list, the slice stack refines a LIFO list: for every operation
   sequence, of any length (hence across any number of growths, with head and tail anywhere). *)
From Coq Require Import List ZArith Lia.
From YS Require Import Container.Queue.
Import ListNotations.
Local Open Scope Z_scope.

Section QueueProofs.
  Context {A : Type} (d : A).
  Notation queue := (queue A).
  Notation enqueue := (enqueue d).
  Notation dequeue := (dequeue d).
  Notation peek := (peek d).

  Lemma length_zero_eqb (l : list A) : Nat.eqb (length l) 0 = true -> l = [].
  Proof. destruct l; simpl; [auto|discriminate]. Qed.

  (* the only arithmetic needed: every index that is reduced stays below 2c, so "mod c" is at most one
     subtraction; in this form lia uses the fact directly *)
  Lemma mod_wrap x c : 0 <= x < 2 * c -> x < c /\ x mod c = x \/ c <= x /\ x mod c = x - c.
  Proof.
    intros Hx. destruct (Z.lt_ge_cases x c); [left|right]; (split; [assumption|]).
    - apply Z.mod_small. lia.
    - replace x with ((x - c) + 1 * c) at 1 by lia. rewrite Z_mod_plus_full, Z.mod_small; lia.
  Qed.

  Lemma set_nth_length (l : list A) n x : length (set_nth l n x) = length l.
  Proof. revert n; induction l as [|h t IH]; intros [|n]; simpl; auto. Qed.

  Lemma nth_set_nth_eq (l : list A) n x : (n < length l)%nat -> nth n (set_nth l n x) d = x.
  Proof. revert n; induction l as [|h t IH]; intros [|n] H; simpl in *; try lia; auto. apply IH. lia. Qed.

  Lemma nth_set_nth_neq (l : list A) n m x : n <> m -> nth m (set_nth l n x) d = nth m l d.
  Proof. revert n m; induction l as [|h t IH]; intros [|n] [|m] H; simpl; auto; lia. Qed.

  (* the indices of a ring of c cells that holds n elements from index f on, nx being the next free
     cell: arithmetic only, apart from the buffer.  f + n = nx while the elements do not run past the end
     of the buffer, nx + c once they wrap (a full ring: nx = f).  2 <= c: growing a full ring of c cells
     sets next to c + 1, an index of the doubled buffer only if c + 1 < 2c (queue.go allocates 8 -
     "any value > 2 would do" - and doubles) *)
  Definition ring (c f n nx : Z) : Prop :=
    2 <= c /\ 0 <= f < c /\ 0 <= nx < c /\ 0 <= n <= c /\ (f + n = nx \/ f + n = nx + c).

  (* element i sits in cell (f + i) mod c; while the ring is not full the next free cell follows them
     and is none of them *)
  Lemma ring_next c f n nx : ring c f n nx -> n < c -> (f + n) mod c = nx.
  Proof. intros R Hc. pose proof (mod_wrap (f + n) c). unfold ring in R. lia. Qed.

  Lemma ring_apart c f n nx i : ring c f n nx -> n < c -> 0 <= i < n ->
    0 <= (f + i) mod c /\ (f + i) mod c <> nx.
  Proof. intros R Hc Hi. pose proof (mod_wrap (f + i) c). unfold ring in R. lia. Qed.

  Lemma ring_size c f n nx : ring c f n nx -> 1 <= n ->
    (if nx =? f then c else (nx - f + c) mod c) = n.
  Proof.
    intros R Hn. pose proof (mod_wrap (nx - f + c) c). unfold ring in R. destruct (Z.eqb_spec nx f); lia.
  Qed.

  Lemma ring_push c f n nx : ring c f n nx -> n < c -> ring c f (n + 1) ((nx + 1) mod c).
  Proof. intros R Hn. pose proof (mod_wrap (nx + 1) c). unfold ring in *. lia. Qed.

  Lemma ring_pop c f n nx : ring c f (Z.succ n) nx -> 0 <= n ->
    ring c ((f + 1) mod c) n nx /\ ((f + 1) mod c = nx <-> n = 0).
  Proof. intros R Hn. pose proof (mod_wrap (f + 1) c). unfold ring in *. lia. Qed.

  (* what Enqueue's test "next = first" tells, and where the ring starts when there is room;
     fst is the field first: f, or -1 when there is no element *)
  Lemma ring_first c f n nx fst : ring c f n nx -> fst = (if n =? 0 then -1 else f) ->
    (nx = fst -> n = c /\ fst = f) /\ (nx <> fst -> n < c /\ (if fst =? -1 then nx else fst) = f).
  Proof.
    intros R ->. unfold ring in R. destruct (Z.eqb_spec n 0) as [->|]; [change (-1 =? -1) with true; lia|].
    destruct (Z.eqb_spec f (-1)); lia.
  Qed.

  Definition cell (b : list A) (f : Z) (i : nat) : A :=
    nth (Z.to_nat ((f + Z.of_nat i) mod Z.of_nat (length b))) b d.

  Lemma cell_0 b f : 0 <= f < Z.of_nat (length b) -> cell b f 0 = nth (Z.to_nat f) b d.
  Proof. intros H. unfold cell. rewrite Z.add_0_r, Z.mod_small by exact H. reflexivity. Qed.

  Lemma cell_from_0 b i : (i < length b)%nat -> cell b 0 i = nth i b d.
  Proof. intros H. unfold cell. rewrite Z.mod_small by lia. f_equal. lia. Qed.

  Lemma cell_succ b f i : cell b ((f + 1) mod Z.of_nat (length b)) i = cell b f (S i).
  Proof. unfold cell. rewrite Zplus_mod_idemp_l. do 3 f_equal. lia. Qed.

  (* q holds the list l, oldest first: either q is the Go zero value, or the buffer is allocated and,
     read cyclically from some index f, starts with l; [first] is f, or -1 when l is empty *)
  Definition Rep (q : queue) (l : list A) : Prop :=
    (base q = [] /\ first q = 0 /\ next q = 0 /\ l = []) \/
    exists f, ring (cap q) f (Z.of_nat (length l)) (next q) /\
      first q = match l with [] => -1 | _ => f end /\
      forall i, (i < length l)%nat -> nth i l d = cell (base q) f i.

  Lemma rep_empty : Rep empty_q [].
  Proof. left. auto. Qed.

  Lemma rep_size q l : Rep q l -> size q = Z.of_nat (length l).
  Proof.
    unfold size. intros [(Hb & _ & _ & ->) | (f & R & H1 & _)]; [rewrite Hb; reflexivity|].
    pose proof R as (H2 & Hf & _). unfold cap in H2.
    replace (length (base q) =? 0)%nat with false by (symmetry; apply Nat.eqb_neq; lia).
    rewrite H1. destruct l as [|h t]; [reflexivity|].
    replace (f =? -1) with false by lia. apply (ring_size _ _ _ _ R). cbn [length]. lia.
  Qed.

  (* the grown buffer: the old ring unrolled from f, then fresh cells *)
  Lemma nth_unrolled b f i rest : 0 <= f < Z.of_nat (length b) -> (i < length b)%nat ->
    nth i (skipn (Z.to_nat f) b ++ firstn (Z.to_nat f) b ++ rest) d = cell b f i.
  Proof.
    intros Hf Hi. unfold cell. set (k := Z.to_nat f).
    assert (Lk : length (firstn k b) = k) by (rewrite firstn_length; lia).
    (* on the right, b is cut at f as well *)
    rewrite <- (firstn_skipn k b) at 4.
    destruct (mod_wrap (f + Z.of_nat i) (Z.of_nat (length b))) as [[? ->]|[? ->]]; [lia| |].
    - replace (Z.to_nat (f + Z.of_nat i)) with (length (firstn k b) + i)%nat by lia.
      rewrite app_nth1, app_nth2_plus by (rewrite skipn_length; lia). reflexivity.
    - rewrite app_nth2, skipn_length, !app_nth1 by (rewrite ?skipn_length; lia). f_equal. lia.
  Qed.

  Lemma snoc_cells (l : list A) x (g : nat -> A) :
    (forall i, (i < length l)%nat -> nth i l d = g i) -> x = g (length l) ->
    forall i, (i < length l + 1)%nat -> nth i (l ++ [x]) d = g i.
  Proof.
    intros Hl Hx i Hi.
    destruct (Nat.eq_dec i (length l)) as [->|]; [rewrite nth_middle; exact Hx|].
    rewrite app_nth1 by lia. apply Hl. lia.
  Qed.

  Lemma rep_head q h t : Rep q (h :: t) -> nth (Z.to_nat (first q)) (base q) d = h.
  Proof.
    intros [(_ & _ & _ & [=]) | (f & (_ & Hf & _) & -> & Hc)].
    rewrite <- cell_0 by exact Hf. symmetry. apply (Hc 0%nat). cbn. lia.
  Qed.

  Lemma rep_peek q l : Rep q l -> peek q = hd_error l.
  Proof.
    intros H. unfold peek. rewrite (rep_size q l H). destruct l; [reflexivity|].
    cbn [length hd_error]. rewrite (rep_head _ _ _ H). reflexivity.
  Qed.

  Lemma rep_dequeue q l : Rep q l ->
    match l with
    | [] => dequeue q = None
    | h :: t => exists q', dequeue q = Some (h, q') /\ Rep q' t
    end.
  Proof.
    intros H. unfold dequeue. rewrite (rep_size q l H). destruct l as [|h t]; [reflexivity|].
    cbn [length]. rewrite (rep_head _ _ _ H).
    destruct H as [(_ & _ & _ & [=]) | (f & R & -> & Hc)].
    cbn [length] in R. rewrite Nat2Z.inj_succ in R. apply ring_pop in R as [R E]; [|lia].
    destruct (Z.eqb_spec ((f + 1) mod cap q) (next q)) as [E'|E'];
      eexists; (split; [reflexivity|]); right; unfold cap; cbn [base first next]; fold (cap q).
    - (* the last element: the queue is reset *)
      apply E in E'. destruct t; [|discriminate E']. exists 0. destruct R as (H2 & _).
      split; [unfold ring; cbn [length]; lia|]. split; [reflexivity|]. intros i Hi. inversion Hi.
    - exists ((f + 1) mod cap q). split; [exact R|]. split.
      + destruct t; [contradiction E'; apply E; reflexivity|reflexivity].
      + intros i Hi. unfold cap. rewrite cell_succ. apply (Hc (S i)). cbn [length]. lia.
  Qed.

  Lemma rep_enqueue q l x : Rep q l -> Rep (enqueue q x) (l ++ [x]).
  Proof.
    assert (Hm : forall f : Z, f = match l ++ [x] with [] => -1 | _ => f end) by (destruct l; reflexivity).
    assert (Ln : Z.of_nat (length (l ++ [x])) = Z.of_nat (length l) + 1) by (rewrite app_length; cbn [length]; lia).
    intros [(Hb & Hf & Hn & ->) | (f & R & H1 & Hc)]; right.
    - (* zero value: lazy allocation of 8 *)
      destruct q as [b f n]. cbn in Hb, Hf, Hn. subst. exists 0. cbn. split; [unfold ring; lia|]. split; [reflexivity|].
      intros [|i] Hi; [reflexivity|lia].
    - unfold enqueue. pose proof R as (H2 & Hf & Hn & Hl & _). unfold cap in H2, Hf, Hn, Hl.
      replace (length (base q) =? 0)%nat with false by (symmetry; apply Nat.eqb_neq; lia).
      assert (F : first q = if Z.of_nat (length l) =? 0 then -1 else f) by (rewrite H1; destruct l; reflexivity).
      destruct (Z.eqb_spec (next q) (first q)) as [E|E]; cbn [negb]; apply (ring_first _ _ _ _ _ R F) in E.
      + (* full: the ring is unrolled from f into a buffer twice as long *)
        destruct E as [E Ef].
        exists 0. rewrite Ef. set (big := skipn _ _ ++ _).
        assert (length big = (2 * length (base q))%nat) as Lb
          by (unfold big; rewrite !app_length, skipn_length, firstn_length, repeat_length; lia).
        unfold cap in *. cbn [base first next]. rewrite set_nth_length, Lb, Ln, E.
        split; [unfold ring; lia|]. split; [apply Hm|].
        apply Nat2Z.inj in E. rewrite app_length. apply snoc_cells.
        * intros i Hi. rewrite cell_from_0, nth_set_nth_neq by (rewrite ?set_nth_length; lia).
          rewrite (Hc i Hi). symmetry. apply nth_unrolled; lia.
        * rewrite cell_from_0, E by (rewrite set_nth_length; lia). symmetry. apply nth_set_nth_eq. lia.
      + (* room left: the element goes into cell next, which the ring does not occupy *)
        destruct E as [Lt Ff].
        exists f. unfold cap in *. cbn [base first next]. rewrite set_nth_length, Ln, Ff.
        split; [apply ring_push; [exact R|exact Lt]|]. split; [apply Hm|].
        rewrite app_length. apply snoc_cells; unfold cell; rewrite set_nth_length.
        * intros i Hi. destruct (ring_apart _ _ _ _ (Z.of_nat i) R Lt) as [B I]; [lia|].
          rewrite nth_set_nth_neq by lia. apply (Hc i Hi).
        * rewrite (ring_next _ _ _ _ R Lt). symmetry. apply nth_set_nth_eq. lia.
  Qed.

  Theorem queue_refines_fifo_from q l ops : Rep q l -> q_run d q ops = fifo_run l ops.
  Proof.
    revert q l. induction ops as [|o ops IH]; intros q l H; [reflexivity|].
    destruct o as [x| | |]; cbn [q_run fifo_run].
    - f_equal. apply IH, rep_enqueue, H.
    - pose proof (rep_dequeue q l H) as Hd. destruct l as [|h t].
      + rewrite Hd. f_equal. apply IH, H.
      + destruct Hd as (q' & -> & H'). f_equal. apply IH, H'.
    - rewrite (rep_peek q l H). destruct l; cbn [hd_error]; f_equal; apply IH, H.
    - rewrite (rep_size q l H). f_equal. apply IH, H.
  Qed.

  Theorem queue_refines_fifo ops : q_run d empty_q ops = fifo_run [] ops.
  Proof. apply queue_refines_fifo_from, rep_empty. Qed.

  Theorem stack_refines_lifo_from (s : list A) ops : s_run s ops = lifo_run (rev s) ops.
  Proof.
    revert s. induction ops as [|o ops IH]; intros s; [reflexivity|].
    destruct o as [x|xs| | | |]; cbn [s_run lifo_run].
    - f_equal. rewrite IH. unfold s_push. rewrite rev_app_distr. reflexivity.
    - f_equal. rewrite IH. unfold s_push_all. rewrite rev_app_distr. reflexivity.
    - unfold s_pop. destruct (rev s) as [|x r] eqn:E.
      + f_equal. rewrite IH, E. reflexivity.
      + f_equal. rewrite IH, rev_involutive. reflexivity.
    - unfold s_peek. destruct (rev s) as [|x r] eqn:E; f_equal; rewrite IH, E; reflexivity.
    - unfold s_size. rewrite rev_length. f_equal. apply IH.
    - f_equal. apply IH.
  Qed.

  Theorem stack_refines_lifo ops : s_run (A:=A) [] ops = lifo_run [] ops.
  Proof. apply (stack_refines_lifo_from []). Qed.
End QueueProofs.
