(* From written statements to written dialogues: the fuel the model gives its statement parser
   (2 * tokens + 4) always suffices for a written body, so a whole written script - file-level
   hashtags, nodes with their headers, bodies - is accepted by the model of tree.FromReader and read
   as the dialogue it stands for. *)
From Coq Require Import List ZArith Lia.
From YS Require Import Base.Sexp Yarn.Ast Generated.TokenTable Syntax.ExprParser Syntax.StmtParser Proofs.StmtParserProofs.
Import ListNotations.

Section Top.
  Variable er : expr -> list (kind * str).
  Variable ewf : expr -> Prop.
  Hypothesis er_toks : forall e, Forall is_etok (er e).
  Hypothesis er_parse : forall e, ewf e -> parse_expression (fst (take_etoks (er e))) = Some e.
  Hypothesis er_call : forall f args, ewf (ECall f args) ->
    parse_call_toks (fst (take_etoks (er (ECall f args)))) = Some (f, args).
  Hypothesis er_value : forall v, ewf v -> (exists a, v = expr_of_atom a) \/ (exists f args, v = ECall f args) ->
    parse_value_toks (fst (take_etoks (er v))) = Some v.

  Notation pws := (pws er).
  Notation pw := (pw er).
  Notation p_else := (p_else er).
  Notation wfs := (wfs er ewf).

  Lemma p_line_len l : line_ok ewf l -> 2 <= length (p_line er l).
  Proof.
    intros (Hne & _). unfold StmtParserProofs.p_line. rewrite !app_length. cbn [length].
    pose proof (flat_len er (ltext l)). destruct (ltext l); [contradiction|]. cbn [length] in *. lia.
  Qed.

  Definition size_ok (n : nat) : Prop :=
    forall ws k, wssize ws <= n -> wfs ws k -> wssize ws <= 2 * length (pws ws) + 1.

  (* at two units per token an option brings six for its own three tokens (the arrow, a line of at least
     two); osize counts three of them (its 2, and the 1 of an empty body - INDENT and DEDENT cover the
     rest of a body).  The surplus 3 * length os pays the constant 3 of wsize (WOpts _ _), as os <> [] *)
  Lemma osize_tokens n : size_ok n -> forall os, osize os <= n ->
    Forall (fun o => line_ok ewf (fst o) /\ wfs (snd o) K_DEDENT) os ->
    osize os + 3 * length os <= 2 * length (p_opts er os).
  Proof.
    intros IH. induction os as [|[l b] r IHr]; intros Hsz Hwf; [cbn; lia|].
    inversion Hwf as [|? ? [Hl Hb] Hwf']; subst. cbn [fst snd] in *.
    cbn [osize] in Hsz. cbn [osize length StmtParserProofs.p_opts]. rewrite !app_length.
    pose proof (p_line_len l Hl). specialize (IHr ltac:(lia) Hwf').
    destruct b as [|w b'].
    - cbn [p_body wssize length]. lia.
    - pose proof (IH (w :: b') K_DEDENT ltac:(lia) Hb).
      cbn [p_body length]. rewrite app_length. cbn [length]. lia.
  Qed.

  Lemma csize_tokens n : size_ok n -> forall cs, csize cs <= n ->
    Forall (fun cb => ewf (fst cb) /\ wfs (snd cb) K_COMMAND_START) cs ->
    csize cs <= 2 * length (p_elifs er cs).
  Proof.
    intros IH. induction cs as [|[c b] r IHr]; intros Hsz Hwf; [cbn; lia|].
    inversion Hwf as [|? ? [Hc Hb] Hwf']; subst. cbn [fst snd] in *.
    cbn [csize] in Hsz. cbn [csize StmtParserProofs.p_elifs length]. rewrite !app_length. cbn [length]. rewrite app_length.
    specialize (IHr ltac:(lia) Hwf'). pose proof (IH b K_COMMAND_START ltac:(lia) Hb). lia.
  Qed.

  Lemma size_tokens_n : forall n, size_ok n.
  Proof.
    induction n as [|n IHn]; intros ws k Hsz Hwf.
    { pose proof (wssize_pos ws). lia. }
    destruct ws as [|w r]; [cbn; lia|].
    inversion Hwf as [|? ? ? Hw Hr]; subst.
    cbn [wssize] in *. pose proof (wsize_pos w) as Hwp. pose proof (wssize_pos r) as Hrp.
    pose proof (IHn r k ltac:(lia) Hr) as Hrs.
    change (pws (w :: r)) with (pw w ++ pws r). rewrite app_length.
    assert (Hw2 : wsize w <= 2 * length (pw w)); [|clear - Hrs Hw2; lia].
    destruct w as [l|os blank|x op e|d|e|c b elifs els|els|fn args|x v ty|ws'].
    - cbn [wsize StmtParserProofs.pw]. inversion Hw as [? ? Hl| | | | | | | | |]; subst. pose proof (p_line_len l Hl). lia.
    - inversion Hw as [|? ? ? Hne Hos Hafter| | | | | | | |]; subst.
      rewrite wsize_opts in *. rewrite pw_opts, app_length.
      pose proof (osize_tokens n IHn os ltac:(lia) Hos).
      destruct os; [contradiction|]. cbn [length] in *. lia.
    - cbn [wsize StmtParserProofs.pw length]. lia.
    - cbn [wsize StmtParserProofs.pw length]. lia.
    - cbn [wsize StmtParserProofs.pw length]. lia.
    - inversion Hw as [| | | | |? ? ? ? ? Hc Hb Helifs Hels| | | |]; subst.
      rewrite wsize_if in *. rewrite pw_if. cbn [length]. rewrite !app_length. cbn [length]. rewrite !app_length.
      pose proof (IHn b K_COMMAND_START ltac:(lia) Hb).
      pose proof (csize_tokens n IHn elifs ltac:(lia) Helifs).
      assert (elsize els <= 2 * length (p_else els)).
      { destruct els as [b'|]; [|cbn; lia]. cbn [elsize StmtParserProofs.p_else length] in *.
        pose proof (IHn b' K_COMMAND_START ltac:(lia) (Hels b' eq_refl)). lia. }
      cbn [endif_toks length]. lia.
    - cbn [wsize StmtParserProofs.pw length]. lia.
    - cbn [wsize StmtParserProofs.pw length]. lia.
    - cbn [wsize StmtParserProofs.pw length]. lia.
    - inversion Hw; subst. rewrite wsize_block in *. rewrite pw_block. cbn [length]. rewrite app_length. cbn [length].
      match goal with H : wfs ws' _ |- _ => pose proof (IHn ws' _ ltac:(lia) H) end. lia.
  Qed.

  Lemma size_tokens ws k : wfs ws k -> wssize ws <= 2 * length (pws ws) + 1.
  Proof. apply (size_tokens_n (wssize ws)). lia. Qed.

  Record wnode := { wheaders : list (str * option str); wbody : list wstmt }.

  Definition p_header (h : str * option str) : list (kind * str) :=
    match h with
    | (k, Some v) => [(K_ID, k); (K_HEADER_DELIMITER, []); (K_REST_OF_LINE, v)]
    | (k, None) => [(K_ID, k); (K_HEADER_DELIMITER, [])]
    end.
  Definition p_node (n : wnode) : list (kind * str) :=
    flat_map p_header (wheaders n) ++ (K_BODY_START, []) :: pws (wbody n) ++ [(K_BODY_END, [])].

  (* Headers is a Go map filled in order: the last value of a key stays; a header without a value is "" *)
  Definition hdr_val (h : str * option str) : str := match snd h with Some v => v | None => [] end.
  Definition hdr_map (hs : list (str * option str)) (acc : alist str) : alist str :=
    fold_left (fun acc h => aset acc (fst h) (hdr_val h)) hs acc.
  Definition mean_node (n : wnode) : node :=
    {| headers := sort_alist (hdr_map (wheaders n) []); body := meaning (wbody n) |}.

  Definition node_ok (n : wnode) : Prop := wheaders n <> [] /\ wfs (wbody n) K_BODY_END.

  (* a match on the head token falls to its default branch when the head is not REST_OF_LINE: for any
     branches, so that the 86 kinds are split in a goal that holds no parser *)
  Lemma not_rest_of_line {A} q (yes : str -> list (kind * str) -> A) no :
    (match q with (K_REST_OF_LINE, _) :: _ => False | _ => True end) ->
    match q with (K_REST_OF_LINE, v) :: r => yes v r | _ => no end = no.
  Proof. intros H. destruct q as [|[[] s] r]; try reflexivity. contradiction. Qed.

  Lemma parse_headers_ok : forall hs acc rest,
    (match rest with (K_ID, _) :: (K_HEADER_DELIMITER, _) :: _ => False | (K_REST_OF_LINE, _) :: _ => False | _ => True end) ->
    parse_headers (flat_map p_header hs ++ rest) acc = (hdr_map hs acc, rest).
  Proof.
    induction hs as [|[k [v|]] r IH]; intros acc rest Hr.
    - cbn [flat_map app hdr_map fold_left].
      destruct rest as [|[k1 s1] t]; [reflexivity|]. destruct k1; try reflexivity.
      destruct t as [|[k2 s2] t']; [reflexivity|]. destruct k2; try reflexivity. contradiction.
    - cbn [flat_map p_header app parse_headers]. rewrite IH by exact Hr. reflexivity.
    - cbn [flat_map p_header app].
      assert (Hnext : forall q, (match q with (K_REST_OF_LINE, _) :: _ => False | _ => True end) ->
                parse_headers ((K_ID, k) :: (K_HEADER_DELIMITER, []) :: q) acc = parse_headers q (aset acc k [])).
      { intros q Hq. cbn [parse_headers]. apply not_rest_of_line, Hq. }
      rewrite Hnext.
      + rewrite IH by exact Hr. reflexivity.
      + destruct r as [|[k' [v'|]] r']; cbn [flat_map p_header app]; try exact I.
        destruct rest as [|[k1 s1] t]; [exact I|]. destruct k1; try exact I. cbn in Hr. exact Hr.
  Qed.

  (* one header at least, for parse_node's match on the first token to compute *)
  Lemma parse_node_unfold h r X :
    parse_node (flat_map p_header (h :: r) ++ X) =
    let '(hs, r0) := parse_headers (flat_map p_header (h :: r) ++ X) [] in
    match r0 with
    | (K_BODY_START, _) :: r1 =>
        match parse_stmts (stmt_fuel r1) r1 with
        | Some (b, (K_BODY_END, _) :: r2) => Some ({| headers := sort_alist hs; body := b |}, r2)
        | _ => None
        end
    | _ => None
    end.
  Proof. destruct h as [k [v|]]; reflexivity. Qed.

  Lemma parse_node_ok n rest : node_ok n ->
    parse_node (p_node n ++ rest) = Some (mean_node n, rest).
  Proof.
    intros (Hne & Hb). unfold p_node, mean_node. rewrite <- app_assoc. cbn [app]. rewrite <- app_assoc. cbn [app].
    destruct (wheaders n) as [|h r] eqn:E; [contradiction|].
    rewrite parse_node_unfold. rewrite parse_headers_ok by exact I.
    rewrite (parse_written er ewf er_toks er_parse er_call er_value (wbody n) ((K_BODY_END, []) :: rest)); [reflexivity|exact Hb|reflexivity|].
    pose proof (size_tokens _ _ Hb). unfold stmt_fuel. rewrite app_length. cbn [length]. lia.
  Qed.

  Lemma parse_nodes_ok : forall ns rest fuel, Forall node_ok ns ->
    (match rest with (K_ID, _) :: _ => False | _ => True end) -> length ns < fuel ->
    parse_nodes fuel (flat_map p_node ns ++ rest) = Some (map mean_node ns, rest).
  Proof.
    induction ns as [|n r IH]; intros rest fuel Hok Hr Hf.
    - cbn [flat_map app map]. destruct fuel as [|f]; [cbn in Hf; lia|]. cbn [parse_nodes].
      destruct rest as [|[k s] t]; [reflexivity|]. destruct k; try reflexivity. contradiction.
    - inversion Hok as [|? ? Hn Hok']; subst. destruct fuel as [|f]; [cbn in Hf; lia|]. cbn [length] in Hf.
      cbn [flat_map map]. rewrite <- app_assoc.
      assert (Hhead : exists k q, p_node n ++ flat_map p_node r ++ rest = (K_ID, k) :: q).
      { destruct Hn as (Hne & _). unfold p_node. destruct (wheaders n) as [|[k [v|]] r0]; [contradiction| |]; cbn [flat_map p_header app]; eauto. }
      destruct Hhead as (k & q & Eh). cbn [parse_nodes]. rewrite Eh. cbn iota. rewrite <- Eh.
      rewrite parse_node_ok by exact Hn. rewrite IH; [reflexivity|exact Hok'|exact Hr|lia].
  Qed.

  Definition p_file_tags (tags : list str) : list (kind * str) :=
    flat_map (fun s => [(K_HASHTAG, []); (K_HASHTAG_TEXT, s)]) tags.
  Definition p_script (tags : list str) (ns : list wnode) : list (kind * str) :=
    p_file_tags tags ++ flat_map p_node ns ++ [(K_EOF, [])].

  Lemma skip_file_tags tags rest : (match rest with (K_HASHTAG, _) :: _ => False | _ => True end) ->
    skip_file_hashtags (p_file_tags tags ++ rest) = rest.
  Proof.
    intros Hr. induction tags as [|t r IH]; cbn [p_file_tags flat_map app].
    - destruct rest as [|[k s] q]; [reflexivity|]. destruct k; try reflexivity. contradiction.
    - cbn [skip_file_hashtags]. exact IH.
  Qed.

  Theorem written_script_is_loaded tags ns : ns <> [] -> Forall node_ok ns ->
    from_reader 0 (p_script tags ns) = Some (map mean_node ns).
  Proof.
    intros Hne Hok. unfold from_reader, parse_dialogue, p_script. cbn [Z.eqb].
    assert (Hstart : match flat_map p_node ns ++ [(K_EOF, [])] with (K_HASHTAG, _) :: _ => False | _ => True end).
    { destruct ns as [|n r]; [contradiction|]. inversion Hok as [|? ? (Hh & _) _]; subst.
      cbn [flat_map]. unfold p_node. destruct (wheaders n) as [|[k [v|]] r0]; [contradiction| |]; exact I. }
    rewrite skip_file_tags by exact Hstart.
    rewrite parse_nodes_ok; [|exact Hok|exact I|].
    - destruct ns; [contradiction|]. reflexivity.
    - rewrite !app_length.
      assert (Hn : forall n, p_node n <> [])
        by (intros n E; apply app_eq_nil in E; destruct E; discriminate).
      pose proof (flat_map_len p_node ns Hn). lia.
  Qed.
End Top.
