(* C09, random(): rand.Float64 over the raw stream is float64(Int63()) / 2^63, drawn again while the
   quotient rounds to 1.  For every stream of Int63 values the result lies in [0, 1], and it is 1
   only if every one of the draws taken rounded to 1 (the real code keeps drawing; the model's fuel
   is the number of redraws it allows). *)
From Coq Require Import Reals Lia Lra List.
From Flocq Require Import Core BinarySingleNaN.
From YS Require Import Base.Sexp Num.F64 Yarn.Ast Yarn.Eval Proofs.F64Facts.
Import ListNotations.
Local Open Scope R_scope.

Lemma of_Z_int63 (v : Z) : (0 <= v < 2 ^ 63)%Z ->
  is_finite (of_Z v) = true /\ 0 <= B2R (of_Z v) <= bpow radix2 63.
Proof.
  intros Hv.
  assert (B : 0 <= rnd (IZR v) <= bpow radix2 63).
  { apply rnd_range; [apply generic_format_0|apply format_bpow; discriminate|].
    split; [apply IZR_le; lia|apply (IZR_le v (2 ^ 63)); lia]. }
  destruct (of_Z_correct v) as [-> F]; [|split; assumption].
  rewrite Rabs_pos_eq by apply B. apply Rle_lt_trans with (1 := proj2 B), bpow_lt. reflexivity.
Qed.

Lemma of_Z_two63 : is_finite (of_Z (2 ^ 63)) = true /\ B2R (of_Z (2 ^ 63)) = bpow radix2 63.
Proof.
  destruct (of_Z_exact (2 ^ 63)) as [E F]; [apply (format_bpow 63); discriminate| |split; assumption].
  rewrite Rabs_pos_eq by apply (bpow_ge_0 radix2 63). apply (bpow_lt radix2 63). reflexivity.
Qed.

Definition candidate (v : Z) : f64 := fdiv (of_Z v) (of_Z (2 ^ 63)).

Lemma candidate_range v : (0 <= v < 2 ^ 63)%Z ->
  is_finite (candidate v) = true /\ 0 <= B2R (candidate v) <= 1.
Proof.
  intros Hv. destruct (of_Z_int63 v Hv) as (Fx & Bx). destruct of_Z_two63 as (Fy & Ey).
  pose proof (bpow_gt_0 radix2 63) as P.
  assert (B : 0 <= rnd (B2R (of_Z v) / B2R (of_Z (2 ^ 63))) <= 1).
  { apply rnd_range; [apply generic_format_0|apply (format_bpow 0); discriminate|]. rewrite Ey. split.
    - apply Rmult_le_pos; [apply Bx|]. left. apply Rinv_0_lt_compat, P.
    - apply Rmult_le_reg_r with (1 := P). unfold Rdiv. rewrite Rmult_assoc, Rinv_l by lra. lra. }
  destruct (fdiv_correct (of_Z v) (of_Z (2 ^ 63)) Fx) as [E F]; [rewrite Ey; lra| |].
  - rewrite Rabs_pos_eq by apply B. apply Rle_lt_trans with (1 := proj2 B). apply (bpow_lt radix2 0). reflexivity.
  - unfold candidate. rewrite E. split; assumption.
Qed.

Lemma candidate_below_one v : (0 <= v < 2 ^ 63)%Z -> feqb (candidate v) fone = false -> B2R (candidate v) < 1.
Proof.
  intros Hv Hne. destruct (candidate_range v Hv) as (F & B). unfold feqb, fone in Hne.
  rewrite (Beqb_correct _ _ _ _ F (is_finite_Bone prec emax Hprec Hmax)), Bone_correct in Hne.
  destruct (Req_bool_spec (B2R (candidate v)) 1) as [E|N]; [discriminate Hne|]. lra.
Qed.

(* an exhausted stream yields 0, and 0 / 2^63 is not 1 *)
Lemma candidate_0 : feqb (candidate 0) fone = false.
Proof. vm_compute. reflexivity. Qed.

Definition int63_stream (l : list Z) : Prop := Forall (fun v => (0 <= v < 2 ^ 63)%Z) l.

Lemma draw_stream e : int63_stream (rng e) ->
  (0 <= fst (draw e) < 2 ^ 63)%Z /\ int63_stream (rng (snd (draw e))).
Proof.
  intros H. unfold draw. destruct (rng e) as [|v r] eqn:E; cbn [fst snd].
  - split; [lia|]. rewrite E. constructor.
  - inversion H; subst. split; [assumption|]. cbn [rng]. assumption.
Qed.

(* rand.Float64 returns one of its candidates, and one equal to 1 only when the model has run out of
   redraws: it has then consumed fuel + 1 values (the real code keeps drawing) *)
Lemma float64_loop_spec : forall fuel e, int63_stream (rng e) ->
  exists v, (0 <= v < 2 ^ 63)%Z /\ fst (float64_loop fuel e) = candidate v /\
    (feqb (candidate v) fone = false \/
     (length (rng e) - length (rng (snd (float64_loop fuel e))) = S fuel)%nat).
Proof.
  induction fuel as [|k IH]; intros e H; cbn [float64_loop]; destruct (draw_stream e H) as (Hv & Hs);
    unfold draw in *; destruct (rng e) as [|v r] eqn:Er; cbn [fst snd rng] in *.
  - fold (candidate 0). exists 0%Z. auto using candidate_0.
  - fold (candidate v). exists v. split; [exact Hv|]. split; [reflexivity|]. right. cbn [length]. lia.
  - fold (candidate 0). rewrite candidate_0. exists 0%Z. auto using candidate_0.
  - fold (candidate v). destruct (feqb (candidate v) fone) eqn:E; [|exists v; auto].
    destruct (IH {| rng := r; hlog := hlog e |} Hs) as (w & Hw & Ew & L). exists w.
    split; [exact Hw|]. split; [exact Ew|]. cbn [rng] in L.
    destruct L as [L|L]; [left; exact L|right; cbn [length]; lia].
Qed.

(* the built-in: random() returns a number in [0, 1] for every Int63 stream, below 1 unless 17
   candidates in a row rounded to 1 (each needs an Int63 value above 2^63 - 513) *)
Theorem random_builtin_range v e : int63_stream (rng e) ->
  exists x e', call_builtin v (STR "random") [] e = Some (Val (Some (VNum x)), e') /\
               is_finite x = true /\ 0 <= B2R x <= 1 /\
               (B2R x < 1 \/ (length (rng e) - length (rng e') = 17)%nat).
Proof.
  intros H.
  assert (E : call_builtin v (STR "random") [] e
              = Some (Val (Some (VNum (fst (float64_loop 16 e)))), snd (float64_loop 16 e))).
  { change (call_builtin v (STR "random") [] e)
      with (let '(x, e1) := float64_loop 16 e in Some (Val (Some (VNum x)), e1)).
    destruct (float64_loop 16 e); reflexivity. }
  eexists _, _. split; [exact E|].
  destruct (float64_loop_spec 16 e H) as (w & Hw & -> & L). destruct (candidate_range w Hw) as (F & B).
  split; [exact F|]. split; [exact B|].
  destruct L as [L|L]; [left; apply candidate_below_one; assumption|right; exact L].
Qed.
