(* C13 for documents built from plain text, escaped brackets and open / close / close-all / self-closing
   markers, an open or self-closing marker carrying the typed properties the parser reads off its
   written form: parsing gives back exactly the plain text, and one attribute per closed marker,
   for which TextForAttribute returns the text the marker enclosed - nested, overlapping and repeated
   markers alike.  (markup_document_roundtrip says how many attributes there are and what each reads;
   where each lies in the text is in document_parse, through [arel].)
   "Enclosed text" is defined on the document itself ([enclosed] below: a stack of open markers, each
   accumulating the text that follows it), independently of positions.
   Proofs/MarkupDocProofs.v is the instance without properties, through an embedding of its documents. *)
From Coq Require Import List ZArith Bool Lia.
From YS Require Import Base.Sexp Num.F64 Num.Decimal Yarn.Value Markup.LineParser Proofs.MarkupProofs.
Import ListNotations.
Local Open Scope Z_scope.

(* the code points of Value.is_space (unicode.IsSpace) one by one: that none of them is an identifier
   character is then a single computation (space_points_not_id) *)
Definition space_points : list N :=
  [9; 10; 11; 12; 13; 32; 133; 160; 5760; 8192; 8193; 8194; 8195; 8196; 8197; 8198; 8199; 8200; 8201; 8202;
   8232; 8233; 8239; 8287; 12288]%N.

Lemma is_space_points c : is_space c = true -> In c space_points.
Proof.
  (* membership of a given number is decided by computation *)
  assert (Hin : forall k, existsb (N.eqb k) space_points = true -> In k space_points).
  { intros k E. apply existsb_exists in E as (x & Hx & Ex). apply N.eqb_eq in Ex. subst x. exact Hx. }
  unfold is_space. intros H.
  repeat match type of H with
         | (_ || _)%bool = true => apply orb_true_iff in H; destruct H as [H|H]
         end;
  repeat match goal with
         | H : (_ && _)%bool = true |- _ => apply andb_true_iff in H; destruct H
         | H : (_ =? _)%N = true |- _ => apply N.eqb_eq in H
         | H : (_ <=? _)%N = true |- _ => apply N.leb_le in H
         end; subst; try (apply Hin; reflexivity).
  - assert (Hc : (c = 9 \/ c = 10 \/ c = 11 \/ c = 12 \/ c = 13)%N) by lia.
    destruct Hc as [->|[->|[->|[->| ->]]]]; apply Hin; reflexivity.
  - assert (Hc : (c = 8192 \/ c = 8193 \/ c = 8194 \/ c = 8195 \/ c = 8196 \/ c = 8197 \/ c = 8198 \/ c = 8199
                  \/ c = 8200 \/ c = 8201 \/ c = 8202)%N) by lia.
    destruct Hc as [->|[->|[->|[->|[->|[->|[->|[->|[->|[->| ->]]]]]]]]]]; apply Hin; reflexivity.
Qed.

Lemma space_points_not_id : forallb (fun c => negb (is_id_char c)) space_points = true.
Proof. vm_compute. reflexivity. Qed.

Lemma id_not_space c : is_id_char c = true -> is_space c = false.
Proof.
  intros H. destruct (is_space c) eqn:E; [|reflexivity].
  apply is_space_points in E. pose proof space_points_not_id as F. rewrite forallb_forall in F.
  specialize (F c E). rewrite H in F. discriminate F.
Qed.

Lemma id_not c x : is_id_char x = false -> is_id_char c = true -> (c =? x)%N = false.
Proof. intros Hx Hc. destruct (c =? x)%N eqn:E; [|reflexivity]. apply N.eqb_eq in E. subst. congruence. Qed.

Lemma not_id_47 : is_id_char 47 = false. Proof. vm_compute. reflexivity. Qed.
Lemma not_id_93 : is_id_char 93 = false. Proof. vm_compute. reflexivity. Qed.
Lemma not_id_61 : is_id_char 61 = false. Proof. vm_compute. reflexivity. Qed.
Lemma not_space_93 : is_space 93 = false. Proof. reflexivity. Qed.
Lemma not_space_47 : is_space 47 = false. Proof. reflexivity. Qed.

Definition name_ok (n : str) : Prop := n <> [] /\ forallb is_id_char n = true /\ processor_of n = None.

Lemma name_head n : name_ok n -> exists c n', n = c :: n' /\ is_id_char c = true /\ forallb is_id_char n' = true.
Proof.
  intros (Hne & Hid & _). destruct n as [|c n']; [contradiction|].
  cbn [forallb] in Hid. apply andb_true_iff in Hid. exists c, n'. tauto.
Qed.

Lemma consume_ws_nonspace c t p : is_space c = false -> consume_ws {| rest := c :: t; sp := p |} = {| rest := c :: t; sp := p |}.
Proof. intros H. unfold consume_ws. cbn [rest sp consume_ws_list]. rewrite H. reflexivity. Qed.

(* take_while stops where the next rune fails the test; at the end of the input that rune is 0 (peekRune) *)
Lemma take_while_app ok a R : forall p acc, forallb ok a = true -> ok (hd 0%N R) = false ->
  take_while ok (a ++ R) p acc = (rev acc ++ a, {| rest := R; sp := p + Z.of_nat (length a) |}).
Proof.
  induction a as [|x a IH]; intros p acc Ha HR.
  - cbn [app length Z.of_nat]. rewrite app_nil_r, Z.add_0_r. destruct R; cbn [take_while hd] in *; rewrite ?HR; reflexivity.
  - cbn [forallb] in Ha. apply andb_true_iff in Ha as [Hx Ha]. cbn [app take_while]. rewrite Hx.
    rewrite IH by assumption. cbn [rev length]. rewrite <- app_assoc. cbn [app]. f_equal. f_equal. lia.
Qed.

Lemma parse_id_word c w R p : is_id_char c = true -> forallb is_id_char w = true -> is_id_char (hd 0%N R) = false ->
  parse_id {| rest := c :: w ++ R; sp := p |}
  = Some (c :: w, {| rest := R; sp := p + 1 + Z.of_nat (length w) |}).
Proof.
  intros Hc Hw HR. unfold parse_id. rewrite consume_ws_nonspace by (apply id_not_space; exact Hc).
  cbn [rest sp]. rewrite Hc, take_while_app by assumption. reflexivity.
Qed.

Lemma parse_id_name n tl p : name_ok n ->
  exists p', parse_id {| rest := n ++ 93%N :: tl; sp := p |} = Some (n, {| rest := 93%N :: tl; sp := p' |}).
Proof.
  intros Hn. destruct (name_head n Hn) as (c & n' & -> & Hc & Hn'). cbn [app].
  rewrite (parse_id_word c n' (93%N :: tl) p Hc Hn' not_id_93). eexists. reflexivity.
Qed.

Lemma parse_rune_here c t p : is_space c = false ->
  parse_rune {| rest := c :: t; sp := p |} c = Some {| rest := t; sp := p + 1 |}.
Proof.
  intros H. unfold parse_rune. rewrite consume_ws_nonspace by exact H. cbn [rest sp]. rewrite N.eqb_refl. reflexivity.
Qed.

Lemma expect_peek_other c x t p : is_space c = false -> (c =? x)%N = false ->
  expect_peek {| rest := c :: t; sp := p |} x = (false, {| rest := c :: t; sp := p |}).
Proof.
  intros Hs Hx. unfold expect_peek. rewrite consume_ws_nonspace by exact Hs. unfold peek. cbn [rest]. rewrite Hx. reflexivity.
Qed.

Lemma expect_peek_id c t p x : is_id_char c = true -> is_id_char x = false ->
  expect_peek {| rest := c :: t; sp := p |} x = (false, {| rest := c :: t; sp := p |}).
Proof. intros Hc Hx. apply expect_peek_other; [apply id_not_space; exact Hc|exact (id_not c x Hx Hc)]. Qed.

Lemma expect_peek_same c t p : is_space c = false ->
  expect_peek {| rest := c :: t; sp := p |} c = (true, {| rest := c :: t; sp := p |}).
Proof.
  intros Hs. unfold expect_peek. rewrite consume_ws_nonspace by exact Hs. unfold peek. cbn [rest]. rewrite N.eqb_refl. reflexivity.
Qed.

(* "[/name]" *)
Lemma parse_marker_close n tl p pos : name_ok n ->
  exists src p', parse_marker {| rest := 47%N :: n ++ 93%N :: tl; sp := p |} pos
    = Some ({| mname := n; mpos := pos; msrc := src; mprops := []; mtype := TClose |}, {| rest := tl; sp := p' |}).
Proof.
  intros Hn. destruct (name_head n Hn) as (c & n' & -> & Hc & Hn').
  unfold parse_marker. cbn [rest sp app].
  rewrite expect_peek_same by reflexivity. rewrite parse_rune_here by reflexivity.
  rewrite (expect_peek_id c _ _ 93 Hc not_id_93), (parse_id_word c n' (93%N :: tl) _ Hc Hn' not_id_93).
  rewrite parse_rune_here by reflexivity. eexists _, _. reflexivity.
Qed.

(* "[/]" *)
Lemma parse_marker_close_all tl p pos :
  exists src p', parse_marker {| rest := 47%N :: 93%N :: tl; sp := p |} pos
    = Some ({| mname := []; mpos := pos; msrc := src; mprops := []; mtype := TCloseAll |}, {| rest := tl; sp := p' |}).
Proof.
  unfold parse_marker. cbn [rest sp].
  rewrite expect_peek_same by reflexivity. rewrite parse_rune_here by reflexivity.
  rewrite expect_peek_same by reflexivity. rewrite parse_rune_here by reflexivity.
  eexists _, _. reflexivity.
Qed.

(* [IOpen n mp w]: an open marker named n, written as '[' followed by w, from which the parser reads the
   properties mp (in order of writing, the shorthand value first) *)
Inductive item := IText (t : str) | IBr (c : N) | IOpen (n : str) (mp : list (str * mvalue)) (w : str) | IClose (n : str) | ICloseAll
  | ISelf (n : str) (mp : list (str * mvalue)) (w : str).      (* a self-closing marker [name props/] *)

(* w is a way of writing, after the '[', a marker of type ty named n with properties mp (the written forms: [written_gen] below) *)
Definition marker_written (ty : tagtype) (w : str) (n : str) (mp : list (str * mvalue)) : Prop :=
  forall tl p pos, exists src p', parse_marker {| rest := w ++ tl; sp := p |} pos
    = Some ({| mname := n; mpos := pos; msrc := src; mprops := mp; mtype := ty |}, {| rest := tl; sp := p' |}).
Definition open_written := marker_written TOpen.
Definition self_written := marker_written TSelfClosing.

Definition render1 (i : item) : str :=
  match i with
  | IText t => t
  | IBr c => [92%N; c]
  | IOpen n mp w => 91%N :: w
  | ISelf n mp w => 91%N :: w
  | IClose n => 91%N :: 47%N :: n ++ [93%N]
  | ICloseAll => [91%N; 47%N; 93%N]
  end.
Definition render (its : list item) : str := flat_map render1 its.
Definition text1 (i : item) : str := match i with IText t => t | IBr c => [c] | _ => [] end.
Definition text (its : list item) : str := flat_map text1 its.

Definition item_ok (i : item) : Prop :=
  match i with
  | IText t => forallb plain_rune t = true            (* neither '[' nor a backslash *)
  | IBr c => c = 91%N \/ c = 93%N
  | IOpen n mp w => name_ok n /\ get_prop mp (STR "trimwhitespace") = None /\ open_written w n mp
  | IClose n => name_ok n
  | ICloseAll => True
  | ISelf n mp w => name_ok n /\ get_prop mp (STR "trimwhitespace") = None /\ self_written w n mp
  end.

(* the markers of a document with the text position each one sits at *)
Definition amark := (str * Z * tagtype * list (str * mvalue))%type.
Fixpoint amarks (its : list item) (p : Z) : list amark :=
  match its with
  | [] => []
  | IText t :: r => amarks r (p + Z.of_nat (length t))
  | IBr _ :: r => amarks r (p + 1)
  | IOpen n mp _ :: r => (n, p, TOpen, mp) :: amarks r p
  | IClose n :: r => (n, p, TClose, []) :: amarks r p
  | ICloseAll :: r => ([], p, TCloseAll, []) :: amarks r p
  | ISelf n mp _ :: r => (n, p, TSelfClosing, mp) :: amarks r p
  end.
Definition mrel (m : marker) (a : amark) : Prop :=
  mname m = fst (fst (fst a)) /\ mpos m = snd (fst (fst a)) /\ mtype m = snd (fst a) /\ mprops m = snd a.

Lemma close_written n : name_ok n -> marker_written TClose (47%N :: n ++ [93%N]) n [].
Proof. intros Hn tl p pos. cbn [app]. rewrite <- app_assoc. exact (parse_marker_close n tl p pos Hn). Qed.

Lemma run_written ty w n mp R p bld blen ms last :
  marker_written ty w n mp -> processor_of n = None -> get_prop mp (STR "trimwhitespace") = None ->
  (ty = TSelfClosing -> is_space (hd 0%N R) = false) ->
  exists src p', run (91%N :: w ++ R) p bld blen ms last
    = run R p' bld blen (ms ++ [{| mname := n; mpos := blen; msrc := src; mprops := mp; mtype := ty |}]) 91%N.
Proof.
  intros Hw Hproc Htw Hs. destruct (Hw R p blen) as (src & p' & Em). exists src, p'.
  (* the trimming rule says no, except to a self-closing marker after a blank, which finds none to swallow *)
  rewrite (run_marker (match ty with TSelfClosing => (blen =? 0) || is_space last | _ => false end) Em Hproc).
  - destruct ty; try reflexivity. rewrite Hs, andb_false_r; reflexivity.
  - unfold trim_rule. cbn [mprops mtype]. rewrite Htw. destruct ((blen =? 0) || is_space last), ty; reflexivity.
Qed.

(* no blank directly after a self-closing marker *)
Fixpoint selfs_ok (its : list item) (R : str) : Prop :=
  match its with
  | [] => True
  | ISelf _ _ _ :: r => is_space (hd 0%N (render r ++ R)) = false /\ selfs_ok r R
  | _ :: r => selfs_ok r R
  end.

Lemma run_items : forall its R p bld blen ms last,
  Forall item_ok its -> selfs_ok its R ->
  exists p' last' ms', Forall2 mrel ms' (amarks its blen) /\
    run (render its ++ R) p bld blen ms last
    = run R p' (rev (text its) ++ bld) (blen + Z.of_nat (length (text its))) (ms ++ ms') last'.
Proof.
  induction its as [|i its IH]; intros R p bld blen ms last Hok Hso.
  - exists p, last, []. split; [constructor|]. cbn. rewrite Z.add_0_r, app_nil_r. reflexivity.
  - inversion Hok as [|? ? Hi Hr]; subst.
    (* the four kinds of marker item are one case *)
    assert (Hmk : forall ty w n mp, marker_written ty w n mp -> processor_of n = None ->
              get_prop mp (STR "trimwhitespace") = None ->
              (ty = TSelfClosing -> is_space (hd 0%N (render its ++ R)) = false) ->
              selfs_ok its R ->
              exists p' last' ms', Forall2 mrel ms' ((n, blen, ty, mp) :: amarks its blen) /\
                run (91%N :: w ++ render its ++ R) p bld blen ms last
                = run R p' (rev (text its) ++ bld) (blen + Z.of_nat (length (text its))) (ms ++ ms') last').
    { intros ty w n mp Hw Hproc Htw Hs Hso'.
      destruct (run_written ty w n mp _ p bld blen ms last Hw Hproc Htw Hs) as (src & p1 & E1).
      destruct (IH R p1 bld blen (ms ++ [{| mname := n; mpos := blen; msrc := src; mprops := mp; mtype := ty |}]) 91%N Hr Hso')
        as (p2 & l2 & ms' & F & E2).
      exists p2, l2, ({| mname := n; mpos := blen; msrc := src; mprops := mp; mtype := ty |} :: ms').
      split; [constructor; [repeat split|exact F]|]. rewrite E1, E2, <- app_assoc. reflexivity. }
    change (render (i :: its)) with (render1 i ++ render its). change (text (i :: its)) with (text1 i ++ text its).
    rewrite <- app_assoc.
    destruct i as [t|c|n mp w|n| |n mp w]; cbn [render1 text1 item_ok amarks selfs_ok app] in *.
    + rewrite run_text by exact Hi.
      destruct (IH R (p + Z.of_nat (length t)) (rev t ++ bld) (blen + Z.of_nat (length t)) ms (List.last t last) Hr Hso)
        as (p2 & l2 & ms' & F & E2).
      exists p2, l2, ms'. split; [exact F|]. rewrite E2, rev_app_distr, app_length, <- app_assoc. f_equal. lia.
    + rewrite run_escaped by exact Hi.
      destruct (IH R (p + 1) (c :: bld) (blen + 1) ms last Hr Hso) as (p2 & l2 & ms' & F & E2).
      exists p2, l2, ms'. split; [exact F|]. rewrite E2. cbn [rev app length]. rewrite <- app_assoc. f_equal. lia.
    + destruct Hi as (Hn & Htw & Hw). apply (Hmk TOpen w n mp); try assumption; [apply Hn|discriminate].
    + apply (Hmk TClose (47%N :: n ++ [93%N]) n []); try assumption;
        [apply close_written; exact Hi|apply Hi|reflexivity|discriminate].
    + apply (Hmk TCloseAll [47%N; 93%N] [] []); try assumption;
        [exact parse_marker_close_all|reflexivity|reflexivity|discriminate].
    + destruct Hi as (Hn & Htw & Hw). destruct Hso as (Hsp & Hso).
      apply (Hmk TSelfClosing w n mp); try assumption; [apply Hn|intros _; exact Hsp].
Qed.

Lemma main_loop_items : forall its R f p bld blen ms last,
  Forall item_ok its -> selfs_ok its R -> (length (render its ++ R) < f)%nat ->
  exists p' last' ms', Forall2 mrel ms' (amarks its blen) /\
    main_loop f {| rest := render its ++ R; sp := p |} bld blen ms last
    = main_loop (S (length R)) {| rest := R; sp := p' |} (rev (text its) ++ bld)
                (blen + Z.of_nat (length (text its))) (ms ++ ms') last'.
Proof.
  intros its R f p bld blen ms last Hok Hso Hf.
  destruct (run_items its R p bld blen ms last Hok Hso) as (p' & l' & ms' & F & E).
  exists p', l', ms'. split; [exact F|]. unfold run in E. rewrite <- E. apply main_loop_fuel; cbn [rest]; lia.
Qed.

Definition entry := (str * list (str * mvalue) * str)%type.       (* name, properties as written, enclosed text *)
Definition ename (e : entry) : str := fst (fst e).
Definition eprops (e : entry) : list (str * mvalue) := snd (fst e).

Fixpoint find_last_e (name : str) (l : list entry) (i : nat) (best : option nat) : option nat :=
  match l with
  | [] => best
  | e :: r => find_last_e name r (S i) (if str_eqb (ename e) name then Some i else best)
  end.

(* [open]: the markers still open, oldest first, each with the text that has followed it so far;
   result: the entry of every closed marker, in closing order; None = a close marker without a
   matching open one *)
Fixpoint enclosed (its : list item) (open : list entry) (done_ : list entry) : option (list entry) :=
  match its with
  | [] => Some done_
  | IOpen n mp _ :: r => enclosed r (open ++ [(n, mp, [])]) done_
  | IClose n :: r =>
      match find_last_e n open 0 None with
      | None => None
      | Some i => match nth_error open i with
                  | Some e => enclosed r (remove_nth open i) (done_ ++ [e])
                  | None => None
                  end
      end
  | ICloseAll :: r => enclosed r [] (done_ ++ open)
  | ISelf n mp _ :: r => enclosed r open (done_ ++ [(n, mp, [])])
  | i :: r => enclosed r (map (fun e : entry => (fst e, snd e ++ text1 i)) open) done_
  end.

Local Open Scope nat_scope.

(* an open marker and its entry, when the text so far is [pre] *)
Definition orel (pre : str) (m : marker) (e : entry) : Prop :=
  mname m = ename e /\ mprops m = eprops e /\ length (snd e) <= length pre /\
  mpos m = Z.of_nat (length pre - length (snd e)) /\ skipn (length pre - length (snd e)) pre = snd e.

(* a finished attribute and its entry *)
Definition arel (pre : str) (a : attribute) (e : entry) : Prop :=
  aname a = ename e /\ aprops a = props_map (eprops e) /\
  exists q, apos a = Z.of_nat q /\ alen a = Z.of_nat (length (snd e)) /\ q + length (snd e) <= length pre /\
            firstn (length (snd e)) (skipn q pre) = snd e.

Lemma orel_grow pre t m (e : entry) : orel pre m e -> orel (pre ++ t) m (fst e, snd e ++ t).
Proof.
  intros (H1 & H2 & H3 & H4 & H5). unfold orel. cbn [fst snd]. rewrite !app_length.
  replace (length pre + length t - (length (snd e) + length t)) with (length pre - length (snd e)) by lia.
  repeat split; try assumption; try lia.
  rewrite skipn_app, H5. replace (length pre - length (snd e) - length pre) with 0 by lia. reflexivity.
Qed.

Lemma arel_grow pre t a e : arel pre a e -> arel (pre ++ t) a e.
Proof.
  intros (H1 & H2 & q & H3 & H4 & H5 & H6). split; [exact H1|]. split; [exact H2|]. exists q.
  repeat split; try assumption; [rewrite app_length; lia|].
  rewrite skipn_app, firstn_app, skipn_length.
  replace (length (snd e) - (length pre - q)) with 0 by lia. cbn [firstn]. rewrite app_nil_r. exact H6.
Qed.

Lemma close_gives_arel pre m o e : orel pre o e -> mpos m = Z.of_nat (length pre) ->
  arel pre (attr_of o (mpos m - mpos o)%Z) e.
Proof.
  intros (H1 & H2 & H3 & H4 & H5) Hm. unfold arel, attr_of. cbn [aname aprops apos alen].
  split; [exact H1|]. split; [rewrite H2; reflexivity|]. exists (length pre - length (snd e)).
  repeat split; try lia. rewrite H5. apply firstn_all.
Qed.

Lemma find_last_agree name : forall us os i best, Forall2 (fun (m : marker) (e : entry) => mname m = ename e) us os ->
  find_last name us i best = find_last_e name os i best.
Proof.
  induction us as [|m us IH]; intros os i best F; inversion F; subst; [reflexivity|].
  cbn [find_last find_last_e]. match goal with H : mname m = _ |- _ => rewrite H end. apply IH. assumption.
Qed.

Lemma Forall2_nth_error {A B} (P : A -> B -> Prop) : forall l1 l2 i a, Forall2 P l1 l2 -> nth_error l1 i = Some a ->
  exists b, nth_error l2 i = Some b /\ P a b.
Proof.
  induction l1 as [|x l1 IH]; intros l2 i a F H; [destruct i; discriminate|].
  inversion F; subst. destruct i; cbn [nth_error] in *.
  - inversion H; subst. eexists. split; [reflexivity|assumption].
  - eapply IH; eassumption.
Qed.

Lemma Forall2_nth_error_none {A B} (P : A -> B -> Prop) : forall l1 l2 i, Forall2 P l1 l2 -> nth_error l1 i = None ->
  nth_error l2 i = None.
Proof.
  induction l1 as [|x l1 IH]; intros l2 i F H; inversion F; subst; [destruct i; reflexivity|].
  destruct i; cbn [nth_error] in *; [discriminate|]. eapply IH; eassumption.
Qed.

Lemma Forall2_remove_nth {A B} (P : A -> B -> Prop) : forall l1 l2 i, Forall2 P l1 l2 ->
  Forall2 P (remove_nth l1 i) (remove_nth l2 i).
Proof.
  induction l1 as [|x l1 IH]; intros l2 i F; inversion F; subst; [destruct i; constructor|].
  destruct i; cbn [remove_nth]; [assumption|]. constructor; [assumption|apply IH; assumption].
Qed.

Lemma Forall2_names pre us os : Forall2 (orel pre) us os -> Forall2 (fun (m : marker) (e : entry) => mname m = ename e) us os.
Proof. apply Forall2_mono. intros m e H. exact (proj1 H). Qed.

(* buildAttributesFromMarkers computes exactly the enclosures of the document *)
Lemma build_attrs_enclosed : forall its pre ms unclosed acc open done_,
  Forall item_ok its ->
  Forall2 mrel ms (amarks its (Z.of_nat (length pre))) ->
  Forall2 (orel pre) unclosed open -> Forall2 (arel pre) acc done_ ->
  match enclosed its open done_ with
  | Some final => exists attrs, build_attrs ms unclosed acc = Some attrs /\ Forall2 (arel (pre ++ text its)) attrs final
  | None => build_attrs ms unclosed acc = None
  end.
Proof.
  induction its as [|i its IH]; intros pre ms unclosed acc open done_ Hok Hms Hun Hacc.
  - inversion Hms; subst. cbn [enclosed build_attrs text flat_map]. rewrite app_nil_r. exists acc. auto.
  - apply Forall_inv_tail in Hok. change (text (i :: its)) with (text1 i ++ text its).
    (* text and escaped brackets: every open entry grows by t *)
    assert (Htxt : forall t, Forall2 mrel ms (amarks its (Z.of_nat (length pre) + Z.of_nat (length t))) ->
              match enclosed its (map (fun e : entry => (fst e, snd e ++ t)) open) done_ with
              | Some final => exists attrs, build_attrs ms unclosed acc = Some attrs /\
                                            Forall2 (arel (pre ++ t ++ text its)) attrs final
              | None => build_attrs ms unclosed acc = None
              end).
    { intros t Hms'. rewrite app_assoc. apply IH; [exact Hok| | |].
      - rewrite app_length, Nat2Z.inj_add. exact Hms'.
      - revert Hun. apply Forall2_map_r. intros. apply orel_grow. assumption.
      - revert Hacc. apply Forall2_mono. intros. apply arel_grow. assumption. }
    destruct i as [t|c|n mp w|n| |n mp w]; cbn [amarks enclosed text1 app] in *.
    1: exact (Htxt t Hms).
    1: exact (Htxt [c] Hms).
    (* a marker item: ms begins with its marker m *)
    all: inversion Hms as [|m ? ms' ? (M1 & M2 & M3 & M4) Hms']; subst; cbn [fst snd] in *.
    all: cbn [build_attrs]; rewrite M3.
    + (* [name props] *)
      apply IH; try assumption. apply Forall2_app; [exact Hun|]. constructor; [|constructor].
      unfold orel. cbn [fst snd length]. rewrite Nat.sub_0_r. repeat split; try assumption; try lia. apply skipn_all.
    + (* [/name] *)
      rewrite M1, (find_last_agree n unclosed open 0 None (Forall2_names _ _ _ Hun)).
      destruct (find_last_e n open 0 None) as [idx|]; [|reflexivity].
      destruct (nth_error unclosed idx) as [o|] eqn:En.
      * destruct (Forall2_nth_error _ _ _ _ _ Hun En) as (e & -> & Hoe).
        apply IH; try assumption; [apply Forall2_remove_nth; exact Hun|].
        apply Forall2_app; [exact Hacc|]. constructor; [|constructor]. apply close_gives_arel; assumption.
      * rewrite (Forall2_nth_error_none _ _ _ _ Hun En). reflexivity.
    + (* [/] *)
      apply IH; try assumption; [constructor|]. apply Forall2_app; [exact Hacc|].
      revert Hun. apply Forall2_map_l. intros o e H. apply close_gives_arel; assumption.
    + (* [name props/] *)
      apply IH; try assumption. apply Forall2_app; [exact Hacc|]. constructor; [|constructor].
      split; [exact M1|]. split; [cbn; rewrite M4; reflexivity|]. exists (length pre).
      cbn [attr_of apos alen snd length]. repeat split; auto; lia.
Qed.

Definition no_edge_space (t : str) : Prop := trim_left t = t /\ trim_left (rev t) = rev t.

Lemma arel_range T a e : arel T a e -> range_ok T a.
Proof. intros (_ & _ & q & Hp & Hl & Hb & _). unfold range_ok. lia. Qed.

Lemma arel_text_for T a e : arel T a e -> text_for_attribute T a = Some (snd e).
Proof.
  intros H. rewrite (text_for_attribute_range _ _ (arel_range _ _ _ H)).
  destruct H as (_ & _ & q & Hp & Hl & _ & Hs). rewrite Hp, Hl, !Nat2Z.id, Hs. reflexivity.
Qed.

Local Open Scope Z_scope.

(* the document theorem: the attributes are, before the stable sort, in one-to-one correspondence
   with the enclosures in closing order, and the implicit character attribute follows them unless
   one of them is called "character" *)
Theorem document_parse its : Forall item_ok its -> selfs_ok its [] -> no_edge_space (text its) ->
  match enclosed its [] [] with
  | Some encl => exists attrs0, Forall2 (arel (text its)) attrs0 encl /\
      parse_markup (render its) =
      Some (text its, sort_attrs attrs0 ++ if has_char attrs0 then [] else char_attr (text its))
  | None => parse_markup (render its) = None
  end.
Proof.
  intros Hok Hso (H1 & H2).
  destruct (run_items its [] 0 [] 0 [] 0%N Hok Hso) as (p' & l' & ms & Hms & E).
  rewrite !app_nil_r, run_nil, rev_involutive in E. cbn [app] in E.
  pose proof (build_attrs_enclosed its [] ms [] [] [] [] Hok Hms (Forall2_nil _) (Forall2_nil _)) as Hb.
  cbn [app] in Hb.
  destruct (enclosed its [] []) as [encl|]; [|exact (parse_markup_build_error _ _ _ E Hb)].
  destruct Hb as (attrs0 & Eb & F). exists attrs0. split; [exact F|].
  apply (parse_markup_clean _ _ _ _ E Eb H1 H2).
  clear - F. induction F; constructor; [eapply arel_range; eassumption|assumption].
Qed.

Definition reads_as (T : str) (a : attribute) (e : entry) : Prop :=
  aname a = ename e /\ aprops a = props_map (eprops e) /\ text_for_attribute T a = Some (snd e).

Lemma arel_reads_as T a e : arel T a e -> reads_as T a e.
Proof. intros H. pose proof (arel_text_for _ _ _ H). destruct H as (N1 & N2 & _). repeat split; assumption. Qed.

Theorem markup_document_roundtrip its :
  Forall item_ok its -> selfs_ok its [] ->
  forallb (fun c => negb (N.eqb c 58)) (text its) = true ->
  no_edge_space (text its) ->
  match enclosed its [] [] with
  | Some encl =>
      exists attrs, parse_markup (render its) = Some (text its, attrs) /\
        length attrs = length encl /\
        (forall e, In e encl -> exists a, In a attrs /\ aname a = ename e /\ aprops a = props_map (eprops e) /\
                                          text_for_attribute (text its) a = Some (snd e)) /\
        (forall a, In a attrs -> exists e, In e encl /\ aname a = ename e /\ aprops a = props_map (eprops e) /\
                                           text_for_attribute (text its) a = Some (snd e))
  | None => parse_markup (render its) = None
  end.
Proof.
  intros Hok Hso Hcolon Hedge. pose proof (document_parse its Hok Hso Hedge) as H.
  destruct (enclosed its [] []) as [encl|]; [|exact H]. destruct H as (attrs0 & F & E).
  exists (sort_attrs attrs0). split; [|exact (sorted_matches _ (reads_as (text its)) _ _ (arel_reads_as _) F)].
  rewrite E, (char_attr_none _ Hcolon). destruct (has_char attrs0); rewrite app_nil_r; reflexivity.
Qed.

(* How properties are written: [name k=v k=v ...] and the shorthand [name=v k=v ...], values being
   integers (decimal digits), decimals, booleans, quoted strings and bare words, one blank between
   properties.  [marker_written] holds for these written forms, so the round trip above applies to them. *)

Inductive pval := PVInt (ds : str) | PVDec (ds fs : str) | PVBool (b : bool) | PVQuoted (s : str) | PVBare (w : str).

Definition pv_text (v : pval) : str :=
  match v with
  | PVInt ds => ds
  | PVDec ds fs => ds ++ 46%N :: fs
  | PVBool true => STR "true"
  | PVBool false => STR "false"
  | PVQuoted s => 34%N :: s ++ [34%N]
  | PVBare w => w
  end.

Definition pv_value (v : pval) : mvalue :=
  match v with
  | PVInt ds => MInt (match digits_val 0 ds with Some i => i | None => 0 end)
  | PVDec ds fs => MFloat (match parse_float (ds ++ 46%N :: fs) with Some f => f | None => F64.of_Z 0 end)   (* strconv.ParseFloat of the text *)
  | PVBool b => MBool b
  | PVQuoted s => MStr s
  | PVBare w => MStr w
  end.

Definition word_ok (w : str) : Prop :=
  match w with
  | [] => False
  | c :: _ => is_udigit c = false /\ forallb is_id_char w = true
  end.

Definition pv_ok (v : pval) : Prop :=
  match v with
  | PVInt ds => ds <> [] /\ forallb is_digit ds = true /\
                (match digits_val 0 ds with Some i => i <? two63 | None => false end) = true
  | PVDec ds fs => ds <> [] /\ fs <> [] /\ forallb is_digit ds = true /\ forallb is_digit fs = true /\
                   parse_float (ds ++ 46%N :: fs) <> None
  | PVBool _ => True
  | PVQuoted s => forallb (fun c => negb (N.eqb c 34) && negb (N.eqb c 92)) s = true
  | PVBare w => word_ok w /\ str_eqb (ascii_lower w) (STR "true") = false /\ str_eqb (ascii_lower w) (STR "false") = false
  end.

Lemma digit_udigit c : is_digit c = true -> is_udigit c = true /\ is_space c = false /\ is_id_char c = true.
Proof.
  unfold is_digit. intros H. apply andb_true_iff in H as [H1 H2]. apply N.leb_le in H1, H2.
  assert (Hc : In c [48;49;50;51;52;53;54;55;56;57]%N).
  { cbn [In]. assert (c = 48 \/ c = 49 \/ c = 50 \/ c = 51 \/ c = 52 \/ c = 53 \/ c = 54 \/ c = 55 \/ c = 56 \/ c = 57)%N by lia. intuition. }
  assert (Hall : forallb (fun c => is_udigit c && negb (is_space c) && is_id_char c) [48;49;50;51;52;53;54;55;56;57]%N = true) by (vm_compute; reflexivity).
  rewrite forallb_forall in Hall. specialize (Hall c Hc). apply andb_true_iff in Hall as [Ha Hb]. apply andb_true_iff in Ha as [Ha Hs].
  apply negb_true_iff in Hs. auto.
Qed.

Lemma udigits_of_digits ds : forallb is_digit ds = true -> forallb is_udigit ds = true.
Proof. induction ds as [|c r IH]; [reflexivity|]. cbn [forallb]. intros H. apply andb_true_iff in H as [H1 H2].
  rewrite (proj1 (digit_udigit c H1)), IH by exact H2. reflexivity. Qed.

Lemma digits_head ds : ds <> [] -> forallb is_digit ds = true ->
  exists d ds', ds = d :: ds' /\ is_udigit d = true /\ is_space d = false.
Proof.
  destruct ds as [|d ds']; [contradiction|]. intros _ H. cbn [forallb] in H. apply andb_true_iff in H as [H _].
  destruct (digit_udigit d H) as (Hu & Hs & _). eauto.
Qed.

Lemma parse_digits_here ds R p : ds <> [] -> forallb is_digit ds = true -> is_udigit (hd 0%N R) = false ->
  parse_digits {| rest := ds ++ R; sp := p |} = (ds, {| rest := R; sp := p + Z.of_nat (length ds) |}).
Proof.
  intros Hne Hd HR. destruct (digits_head ds Hne Hd) as (d & ds' & -> & _ & Hs).
  unfold parse_digits. cbn [app]. rewrite consume_ws_nonspace by exact Hs. cbn [rest sp].
  exact (take_while_app is_udigit (d :: ds') R p [] (udigits_of_digits _ Hd) HR).
Qed.

(* what may follow a value: one blank and then something that is not a blank, or directly a character
   that ends digits and words; never a '.' *)
Definition follows (sep : str) (y : N) : Prop :=
  is_space y = false /\ y <> 46%N /\
  ((sep = [32%N]) \/ (sep = [] /\ is_id_char y = false /\ is_udigit y = false)).

Lemma consume_ws_sep sep y tl p : follows sep y ->
  consume_ws {| rest := sep ++ y :: tl; sp := p |} = {| rest := y :: tl; sp := p + Z.of_nat (length sep) |}.
Proof.
  intros (Hy & _ & [->|(-> & _)]).
  - unfold consume_ws. cbn [rest sp app consume_ws_list]. change (is_space 32) with true. cbv iota.
    cbn [consume_ws_list]. rewrite Hy. reflexivity.
  - cbn [app length Z.of_nat]. rewrite Z.add_0_r. apply consume_ws_nonspace. exact Hy.
Qed.

(* words and digits end where sep ++ y :: tl begins *)
Lemma sep_stops sep y tl : follows sep y ->
  is_id_char (hd 0%N (sep ++ y :: tl)) = false /\ is_udigit (hd 0%N (sep ++ y :: tl)) = false.
Proof. intros (_ & _ & [->|(-> & Hi & Hu)]); [split; vm_compute; reflexivity|auto]. Qed.

Lemma parse_string_body_ok s : forall tl p acc,
  forallb (fun c => negb (N.eqb c 34) && negb (N.eqb c 92)) s = true ->
  exists p', parse_string_body (s ++ 34%N :: tl) p acc = Some (rev acc ++ s, {| rest := tl; sp := p' |}).
Proof.
  induction s as [|c s IH]; intros tl p acc H.
  - cbn [app parse_string_body]. change (34 =? 34)%N with true. cbv iota. rewrite app_nil_r. eexists. reflexivity.
  - cbn [forallb] in H. apply andb_true_iff in H as [Hc Hs]. apply andb_true_iff in Hc as [H1 H2].
    apply negb_true_iff in H1, H2. cbn [app parse_string_body]. rewrite H1, H2.
    destruct (IH tl (p + 1) (c :: acc) Hs) as (p' & E). exists p'. rewrite E. cbn [rev]. rewrite <- app_assoc. reflexivity.
Qed.

Definition word_value (w : str) : mvalue :=
  let lw := ascii_lower w in
  if str_eqb lw (STR "true") then MBool true else if str_eqb lw (STR "false") then MBool false else MStr w.

Lemma parse_value_word w sep y tl p : word_ok w -> follows sep y ->
  exists r' p', parse_value {| rest := w ++ sep ++ y :: tl; sp := p |} = Some (word_value w, r') /\
                consume_ws r' = {| rest := y :: tl; sp := p' |}.
Proof.
  intros Hw Hf. destruct w as [|c w']; [contradiction|]. destruct Hw as (Hcu & Hwi).
  pose proof Hwi as Hwi0. cbn [forallb] in Hwi0. apply andb_true_iff in Hwi0 as [Hci Hwi'].
  unfold parse_value. cbn [app]. rewrite consume_ws_nonspace by (apply id_not_space; exact Hci). unfold peek at 1. cbn [rest]. rewrite Hcu.
  rewrite (expect_peek_id c _ _ 34 Hci eq_refl).
  rewrite (parse_id_word c w' _ _ Hci Hwi' (proj1 (sep_stops sep y tl Hf))).
  unfold word_value. cbv zeta.
  destruct (str_eqb (ascii_lower (c :: w')) (STR "true")); [|destruct (str_eqb (ascii_lower (c :: w')) (STR "false"))];
    (eexists _, _; split; [reflexivity|exact (consume_ws_sep sep y tl _ Hf)]).
Qed.

Lemma parse_value_written v sep y tl p : pv_ok v -> follows sep y ->
  exists r' p', parse_value {| rest := pv_text v ++ sep ++ y :: tl; sp := p |} = Some (pv_value v, r') /\
                consume_ws r' = {| rest := y :: tl; sp := p' |}.
Proof.
  intros Hv Hf. pose proof Hf as (Hy & Hdot & _). destruct (sep_stops sep y tl Hf) as (_ & Hstop).
  destruct v as [ds|ds fs|b|s|w]; cbn [pv_text pv_value pv_ok] in *.
  - (* integer *)
    destruct Hv as (Hne & Hd & Hr). destruct (digits_head ds Hne Hd) as (d & ds' & -> & Hu & Hs).
    unfold parse_value. cbn [app]. rewrite consume_ws_nonspace by exact Hs. unfold peek. cbn [rest]. rewrite Hu.
    change (d :: ds' ++ sep ++ y :: tl) with ((d :: ds') ++ sep ++ y :: tl).
    rewrite parse_digits_here by assumption.
    unfold expect_peek. rewrite consume_ws_sep by exact Hf.
    unfold peek. cbn [rest]. rewrite (proj2 (N.eqb_neq y 46) Hdot).
    unfold all_ascii_digits. rewrite Hd.
    destruct (digits_val 0 (d :: ds')) as [i|]; [|discriminate]. rewrite Hr.
    eexists _, _. split; [reflexivity|]. apply consume_ws_nonspace. exact Hy.
  - (* decimal *)
    destruct Hv as (Hne & Hnf & Hd & Hfd & Hpf). destruct (digits_head ds Hne Hd) as (d & ds' & -> & Hu & Hs).
    unfold parse_value. cbn [app]. rewrite consume_ws_nonspace by exact Hs. unfold peek. cbn [rest]. rewrite Hu.
    replace (d :: (ds' ++ 46%N :: fs) ++ sep ++ y :: tl) with ((d :: ds') ++ 46%N :: fs ++ sep ++ y :: tl)
      by (cbn [app]; rewrite <- app_assoc; reflexivity).
    rewrite parse_digits_here by (assumption || reflexivity).
    rewrite expect_peek_same by reflexivity. rewrite parse_rune_here by reflexivity.
    rewrite parse_digits_here by assumption.
    unfold all_ascii_digits. rewrite Hd, Hfd. cbn [andb].
    destruct fs as [|f0 fs']; [contradiction|].
    cbn [app] in Hpf |- *. destruct (parse_float (d :: ds' ++ 46%N :: f0 :: fs')) as [fl|]; [|contradiction].
    eexists _, _. split; [reflexivity|exact (consume_ws_sep sep y tl _ Hf)].
  - (* boolean: the words true and false *)
    destruct b.
    + exact (parse_value_word (STR "true") sep y tl p (conj eq_refl eq_refl) Hf).
    + exact (parse_value_word (STR "false") sep y tl p (conj eq_refl eq_refl) Hf).
  - (* quoted string *)
    unfold parse_value. cbn [app]. rewrite consume_ws_nonspace by reflexivity. unfold peek at 1. cbn [rest].
    change (is_udigit 34) with false. cbv iota. rewrite expect_peek_same by reflexivity.
    unfold parse_string. rewrite consume_ws_nonspace by reflexivity. cbn [rest sp]. change (34 =? 34)%N with true. cbv iota.
    rewrite <- app_assoc. cbn [app].
    destruct (parse_string_body_ok s (sep ++ y :: tl) (p + 1) [] Hv) as (p0 & Es). rewrite Es. cbn [rev app].
    eexists _, _. split; [reflexivity|exact (consume_ws_sep sep y tl _ Hf)].
  - (* bare word *)
    destruct Hv as (Hw & Ht & Hfa).
    destruct (parse_value_word w sep y tl p Hw Hf) as (r' & p' & E & Ec).
    exists r', p'. split; [|exact Ec]. rewrite E. unfold word_value. cbv zeta. rewrite Ht, Hfa. reflexivity.
Qed.

Definition key_ok (k : str) : Prop := word_ok k.
Definition prop_ok (kv : str * pval) : Prop := key_ok (fst kv) /\ pv_ok (snd kv).

(* k=v k=v ... (one blank between properties, none before the first) *)
Fixpoint ptext (ps : list (str * pval)) : str :=
  match ps with
  | [] => []
  | (k, v) :: r => k ++ 61%N :: pv_text v ++ match r with [] => [] | _ => 32%N :: ptext r end
  end.

Definition pvalues (ps : list (str * pval)) : list (str * mvalue) := map (fun kv => (fst kv, pv_value (snd kv))) ps.

Lemma word_head k : word_ok k -> exists c k', k = c :: k' /\ is_id_char c = true /\ forallb is_id_char k' = true /\ is_udigit c = false.
Proof.
  destruct k as [|c k']; [contradiction|]. intros (Hu & Hi). cbn [forallb] in Hi. apply andb_true_iff in Hi as [H1 H2].
  exists c, k'. auto.
Qed.

Lemma ptext_head ps : ps <> [] -> Forall prop_ok ps -> exists c t, ptext ps = c :: t /\ is_id_char c = true.
Proof.
  destruct ps as [|[k v] r]; [contradiction|]. intros _ H. inversion H as [|? ? [Hk _] _]; subst. cbn [fst] in Hk.
  destruct (word_head k Hk) as (c & k' & -> & Hc & _). cbn [ptext app]. eauto.
Qed.

(* how a marker ends: "]" (open) or "/]" (self-closing) *)
Definition ending (self : bool) : str := if self then [47%N; 93%N] else [93%N].
Definition ending_type (self : bool) : tagtype := if self then TSelfClosing else TOpen.

(* what follows the name or a value: one blank and the remaining properties, if there are any *)
Definition sepd (ps : list (str * pval)) : str := match ps with [] => [] | _ => 32%N :: ptext ps end.

(* the same tail read twice: behind the name or a value it is a separator and a rune (where parse_id and
   parse_value stop), and for parse_props, which skips blanks first, it begins with that rune *)
Lemma tail_follows self ps tl : Forall prop_ok ps ->
  exists sep y t, sepd ps ++ ending self ++ tl = sep ++ y :: t /\ ptext ps ++ ending self ++ tl = y :: t /\
                  follows sep y /\ (y =? 61)%N = false.
Proof.
  intros Hps. destruct ps as [|kv ps].
  - destruct self; [exists [], 47%N, (93%N :: tl)|exists [], 93%N, tl]; cbn [sepd ptext ending app];
      (repeat split; try discriminate); right; repeat split; reflexivity.
  - destruct (ptext_head (kv :: ps) ltac:(discriminate) Hps) as (y & t & Ey & Hy). exists [32%N], y, (t ++ ending self ++ tl).
    unfold sepd. rewrite Ey. split; [reflexivity|]. split; [reflexivity|]. split; [|exact (id_not y 61 not_id_61 Hy)].
    split; [apply id_not_space; exact Hy|]. split; [intros ->; vm_compute in Hy; discriminate|]. left. reflexivity.
Qed.

Lemma parse_props_written : forall self ps f r p nm acc pos src tl,
  Forall prop_ok ps -> consume_ws r = {| rest := ptext ps ++ ending self ++ tl; sp := p |} -> (length ps < f)%nat ->
  exists p', parse_props f r nm acc pos src
    = Some ({| mname := nm; mpos := pos; msrc := src; mprops := acc ++ pvalues ps; mtype := ending_type self |}, {| rest := tl; sp := p' |}).
Proof.
  intros self. induction ps as [|[k v] ps IH]; intros f r p nm acc pos src tl Hok Hr Hf.
  - destruct f; [cbn in Hf; lia|]. cbn [parse_props]. rewrite Hr. cbn [ptext app]. unfold peek.
    destruct self; cbn [ending ending_type app rest N.eqb Pos.eqb]; rewrite !parse_rune_here by reflexivity;
      cbn [pvalues map]; rewrite app_nil_r; eexists; reflexivity.
  - destruct f; [cbn in Hf; lia|]. cbn [length] in Hf. inversion Hok as [|? ? [Hk Hv] Hok']; subst. cbn [fst snd] in *.
    destruct (word_head k Hk) as (c & k' & -> & Hc & Hk' & Hcu).
    cbn [parse_props]. rewrite Hr. cbn [ptext app]. unfold peek. cbn [rest].
    rewrite (id_not c 93 not_id_93 Hc), (id_not c 47 not_id_47 Hc).
    rewrite <- app_assoc. cbn [app]. rewrite (parse_id_word c k' (61%N :: _) _ Hc Hk' not_id_61).
    rewrite parse_rune_here by reflexivity. fold (sepd ps).
    destruct (tail_follows self ps tl Hok') as (sep & y & t & E1 & E2 & Hfy & _).
    rewrite <- app_assoc, E1.
    destruct (parse_value_written v sep y t (p + 1 + Z.of_nat (length k') + 1) Hv Hfy) as (r' & p' & -> & Ec).
    destruct (IH f r' p' nm (acc ++ [(c :: k', pv_value v)]) pos src tl Hok') as (p2 & ->); [rewrite Ec, E2; reflexivity|lia|].
    exists p2. cbn [pvalues map fst snd]. rewrite <- app_assoc. reflexivity.
Qed.

(* name k=v ... ]      and      name=v k=v ... ] *)
Definition w_plain (n : str) (ps : list (str * pval)) : str :=
  n ++ match ps with [] => [] | _ => 32%N :: ptext ps end ++ [93%N].
Definition w_short (n : str) (v : pval) (ps : list (str * pval)) : str :=
  n ++ 61%N :: pv_text v ++ match ps with [] => [] | _ => 32%N :: ptext ps end ++ [93%N].

(* parse_marker gives parse_props the fuel S (length of what is left to read); parse_props_written
   needs one unit per property, and a property list is shorter than its text *)
Lemma props_fuel ps X : (length ps < S (length (ptext ps ++ X)))%nat.
Proof.
  rewrite app_length. assert (length ps <= length (ptext ps))%nat; [|lia].
  induction ps as [|[k v] r IH]; [cbn; lia|]. cbn [ptext length]. rewrite !app_length. cbn [length]. rewrite app_length.
  destruct r; cbn [length] in *; lia.
Qed.

(* name k=v ... ]   or   name k=v ... /] *)
Definition w_plain_gen (self : bool) (n : str) (ps : list (str * pval)) : str :=
  n ++ match ps with [] => [] | _ => 32%N :: ptext ps end ++ ending self.

(* every written form at once: sv is the shorthand value of [name=v ...], if there is one *)
Definition w_gen (self : bool) (n : str) (sv : option pval) (ps : list (str * pval)) : str :=
  n ++ match sv with Some v => 61%N :: pv_text v | None => [] end ++ sepd ps ++ ending self.

Theorem written_gen self n sv ps : name_ok n -> match sv with Some v => pv_ok v | None => True end -> Forall prop_ok ps ->
  marker_written (ending_type self) (w_gen self n sv ps) n
                 (match sv with Some v => [(n, pv_value v)] | None => [] end ++ pvalues ps).
Proof.
  intros Hn Hv Hps tl p pos. destruct (name_head n Hn) as (c & n' & -> & Hc & Hn').
  unfold parse_marker, w_gen. cbn [rest sp]. rewrite <- !app_assoc. cbn [app].
  rewrite (expect_peek_id c _ _ 47 Hc not_id_47).
  destruct (tail_follows self ps tl Hps) as (sep & y & t & E1' & E2 & Hfy & Hy61). rewrite E1'.
  assert (Hfuel : forall r' q, consume_ws r' = {| rest := y :: t; sp := q |} -> (length ps < S (length (rest r')))%nat).
  { intros r' q Ec. pose proof (consume_ws_len r') as Hl. rewrite Ec in Hl. cbn [rest] in Hl. rewrite <- E2 in Hl.
    pose proof (props_fuel ps (ending self ++ tl)). lia. }
  destruct sv as [v|]; cbn [app].
  - rewrite (parse_id_word c n' (61%N :: _) _ Hc Hn' not_id_61).
    rewrite expect_peek_same by reflexivity. rewrite parse_rune_here by reflexivity.
    match goal with |- context [parse_value {| rest := _; sp := ?q |}] =>
      destruct (parse_value_written v sep y t q Hv Hfy) as (r' & p' & -> & Ec) end.
    destruct (parse_props_written self ps (S (length (rest r'))) r' p' (c :: n') [(c :: n', pv_value v)] pos p tl Hps) as (p2 & ->);
      [rewrite Ec, E2; reflexivity|exact (Hfuel _ _ Ec)|].
    exists p, p2. reflexivity.
  - rewrite (parse_id_word c n' _ _ Hc Hn' (proj1 (sep_stops sep y t Hfy))).
    unfold expect_peek. rewrite consume_ws_sep by exact Hfy. unfold peek. cbn [rest]. rewrite Hy61.
    exists p. eapply (parse_props_written self ps _ _ _ (c :: n') []); [exact Hps| |].
    + rewrite consume_ws_nonspace by apply Hfy. rewrite E2. reflexivity.
    + apply (Hfuel {| rest := y :: t; sp := p |} p), consume_ws_nonspace, Hfy.
Qed.

Theorem plain_form_written n ps : name_ok n -> Forall prop_ok ps -> open_written (w_plain n ps) n (pvalues ps).
Proof. intros Hn Hps. exact (written_gen false n None ps Hn I Hps). Qed.

(* the self-closing form: name k=v ... /] *)
Definition w_self (n : str) (ps : list (str * pval)) : str := w_plain_gen true n ps.
Theorem self_form_written n ps : name_ok n -> Forall prop_ok ps -> self_written (w_self n ps) n (pvalues ps).
Proof. intros Hn Hps. exact (written_gen true n None ps Hn I Hps). Qed.

Theorem short_form_written n v ps : name_ok n -> pv_ok v -> Forall prop_ok ps ->
  open_written (w_short n v ps) n ((n, pv_value v) :: pvalues ps).
Proof. intros Hn Hv Hps. exact (written_gen false n (Some v) ps Hn Hv Hps). Qed.

(* "[name]" *)
Lemma parse_marker_open n tl p pos : name_ok n ->
  exists src p', parse_marker {| rest := n ++ 93%N :: tl; sp := p |} pos
    = Some ({| mname := n; mpos := pos; msrc := src; mprops := []; mtype := TOpen |}, {| rest := tl; sp := p' |}).
Proof.
  (* the plain form without properties *)
  intros Hn. pose proof (plain_form_written n [] Hn (Forall_nil _) tl p pos) as H.
  unfold w_plain in H. cbn [app pvalues map] in H. rewrite <- app_assoc in H. exact H.
Qed.

Definition open_plain (n : str) (ps : list (str * pval)) : item := IOpen n (pvalues ps) (w_plain n ps).
Definition open_short (n : str) (v : pval) (ps : list (str * pval)) : item :=
  IOpen n ((n, pv_value v) :: pvalues ps) (w_short n v ps).

Lemma open_plain_ok n ps : name_ok n -> Forall prop_ok ps ->
  get_prop (pvalues ps) (STR "trimwhitespace") = None -> item_ok (open_plain n ps).
Proof. intros Hn Hps Ht. cbn [open_plain item_ok]. split; [exact Hn|]. split; [exact Ht|]. apply plain_form_written; assumption. Qed.

Lemma open_short_ok n v ps : name_ok n -> pv_ok v -> Forall prop_ok ps ->
  get_prop ((n, pv_value v) :: pvalues ps) (STR "trimwhitespace") = None -> item_ok (open_short n v ps).
Proof. intros Hn Hv Hps Ht. cbn [open_short item_ok]. split; [exact Hn|]. split; [exact Ht|]. apply short_form_written; assumption. Qed.

Definition self_marker (n : str) (ps : list (str * pval)) : item := ISelf n (pvalues ps) (w_self n ps).
Lemma self_marker_ok n ps : name_ok n -> Forall prop_ok ps ->
  get_prop (pvalues ps) (STR "trimwhitespace") = None -> item_ok (self_marker n ps).
Proof. intros Hn Hps Ht. cbn [self_marker item_ok]. split; [exact Hn|]. split; [exact Ht|]. apply self_form_written; assumption. Qed.
