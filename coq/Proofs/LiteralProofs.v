(* C04, literal text end to end: a line written as a sequence of characters, each escapable one with
   or without its backslash, goes through the TextMode lexer (Syntax/TextLine.v) and then through the
   markup phase (Markup/LineParser.v); what the runner returns is the characters with every escape
   resolved, trimmed.  The two excluded shapes are the recorded findings D21 (an escaped bracket as
   the first character) and D27 (an escaped backslash directly before an unescaped ']'). *)
From Coq Require Import List ZArith Bool.
From YS Require Import Base.Sexp Yarn.Value Markup.LineParser Syntax.TextLine Syntax.TextLineWire
     Proofs.TextLineProofs Proofs.MarkupProofs.
Import ListNotations.
Local Open Scope N_scope.

Inductive tok := TChar (c : N) (* written as it is *) | TEsc (c : N) (* written with a backslash *).

Definition tchar (t : tok) : N := match t with TChar c | TEsc c => c end.
Definition is_bracket (c : N) : bool := (c =? 91) || (c =? 93).
Definition write1 (t : tok) : str := match t with TChar c => [c] | TEsc c => [92; c] end.
Definition write (ts : list tok) : str := flat_map write1 ts.
(* the property's reading: a backslash makes the next character literal *)
Definition meaning (ts : list tok) : str := map tchar ts.
(* what the lexer hands to the markup phase: escaped brackets keep their backslash *)
Definition lexed1 (t : tok) : str :=
  match t with TChar c => [c] | TEsc c => if is_bracket c then [92; c] else [c] end.
Definition lexed (ts : list tok) : str := flat_map lexed1 ts.

Definition first_written (ts : list tok) (nx : option N) : option N :=
  match ts with TChar c :: _ => Some c | TEsc _ :: _ => Some 92 | [] => nx end.
Definition opt_is (o : option N) (x : N) : bool := match o with Some c => c =? x | None => false end.

(* the lexer's side: characters that are text when written plainly ('<' and '/' only when they do
   not pair up with the next written character), and the characters that can be escaped.
   [nx]: the first character written after ts (None at the end of the line), for a '<' or '/' that ends ts *)
Definition lex_plain (c : N) : bool :=
  negb ((c =? 13) || (c =? 10) || (c =? 92) || (c =? 35) || (c =? 123)).
Fixpoint lex_ok (nx : option N) (ts : list tok) : bool :=
  match ts with
  | [] => true
  | TChar c :: r => lex_plain c && negb ((c =? 60) && opt_is (first_written r nx) 60)
                    && negb ((c =? 47) && opt_is (first_written r nx) 47) && lex_ok nx r
  | TEsc c :: r => (escapable c || is_bracket c) && lex_ok nx r
  end.

(* the markup phase's side: no unescaped '[' (that is a marker, not text), and - finding D27 - no
   escaped backslash directly before an unescaped ']' *)
Definition next_is_close (ts : list tok) : bool := match ts with TChar c :: _ => c =? 93 | _ => false end.
Fixpoint mk_ok (ts : list tok) : bool :=
  match ts with
  | [] => true
  | TChar c :: r => negb (c =? 91) && negb (c =? 92) && mk_ok r
  | TEsc c :: r => (escapable c || is_bracket c) && negb ((c =? 92) && next_is_close r) && mk_ok r
  end.

(* the first token of a line: not a blank, not the start of another statement; an escaped bracket
   cannot come first (finding D21) *)
Definition first_ok (t : tok) : bool :=
  match t with
  | TChar c => negb (is_ws c) && negb (c =? 45) && negb (c =? 61)
  | TEsc c => escapable c
  end.

Lemma hd_write ts rest_ : hd_error (write ts ++ rest_) = first_written ts (hd_error rest_).
Proof. destruct ts as [|[c|c] r]; reflexivity. Qed.

Lemma hd_match (s : str) x : match s with e :: _ => e =? x | [] => false end = opt_is (hd_error s) x.
Proof. destruct s; reflexivity. Qed.

Lemma lex_ok_plain c r rest_ : lex_ok (hd_error rest_) (TChar c :: r) = true ->
  plain c (write r ++ rest_) = true /\ lex_ok (hd_error rest_) r = true.
Proof.
  cbn [lex_ok]. unfold plain, next_is, lex_plain. rewrite !hd_match, hd_write.
  intros H. apply andb_true_iff in H as [H Hr]. split; [exact H|exact Hr].
Qed.

Lemma lex_text_toks : forall ts rest_ acc, lex_ok (hd_error rest_) ts = true ->
  lex_text (write ts ++ rest_) acc = lex_text rest_ (rev (lexed ts) ++ acc).
Proof.
  induction ts as [|[c|c] r IH]; intros rest_ acc H; [reflexivity| |].
  - destruct (lex_ok_plain c r rest_ H) as [Hp Hr].
    change (write (TChar c :: r) ++ rest_) with (c :: (write r ++ rest_)).
    rewrite (lex_text_plain c _ acc Hp), IH by exact Hr.
    cbn [lexed flat_map lexed1 app rev]. rewrite <- app_assoc. reflexivity.
  - cbn [lex_ok] in H. apply andb_true_iff in H as [He Hr].
    change (write (TEsc c :: r) ++ rest_) with (92 :: c :: (write r ++ rest_)).
    cbn [lexed flat_map lexed1]. change (flat_map lexed1 r) with (lexed r). unfold is_bracket in *.
    destruct ((c =? 91) || (c =? 93)) eqn:Eb.
    + rewrite lex_text_escaped_bracket, IH by assumption. cbn [app rev]. rewrite <- !app_assoc. reflexivity.
    + rewrite orb_false_r in He. rewrite lex_text_escaped, IH by assumption.
      cbn [app rev]. rewrite <- app_assoc. reflexivity.
Qed.

Lemma lex_line_first t ts rest_ : first_ok t = true -> lex_ok (hd_error rest_) (t :: ts) = true ->
  lex_line (write (t :: ts) ++ rest_) = lex_text (write ts ++ rest_) (rev (lexed1 t)).
Proof.
  intros Hf H. destruct t as [c|c]; cbn [first_ok] in Hf.
  - destruct (lex_ok_plain c ts rest_ H) as [Hp _].
    apply andb_true_iff in Hf as [Hf H61]. apply andb_true_iff in Hf as [Hw H45].
    apply negb_true_iff in Hw, H45, H61.
    exact (lex_line_plain c _ Hp Hw H45 H61).
  - change (write (TEsc c :: ts) ++ rest_) with (92 :: c :: (write ts ++ rest_)).
    rewrite (lex_line_backslash c _ Hf). cbn [lexed1]. unfold is_bracket.
    rewrite (escapable_not_bracket c Hf). reflexivity.
Qed.

Lemma lexed_head_not_bracket r : mk_ok r = true -> next_is_close r = false ->
  match lexed r with x :: _ => (x =? 91) || (x =? 93) | [] => false end = false.
Proof.
  destruct r as [|[c|c] r]; intros H Hn; [reflexivity| |].
  - cbn [mk_ok] in H. apply andb_true_iff in H as [H _]. apply andb_true_iff in H as [H91 _].
    apply negb_true_iff in H91. cbn [next_is_close] in Hn. cbn [lexed flat_map lexed1 app]. rewrite H91, Hn. reflexivity.
  - cbn [mk_ok] in H. apply andb_true_iff in H as [H _]. apply andb_true_iff in H as [He _].
    cbn [lexed flat_map lexed1]. destruct (is_bracket c) eqn:Eb; [reflexivity|].
    cbn [app]. exact Eb.
Qed.

Lemma run_toks : forall ts p bld blen ms last, mk_ok ts = true ->
  run (lexed ts) p bld blen ms last = Some (rev bld ++ meaning ts, ms).
Proof.
  induction ts as [|[c|c] r IH]; intros p bld blen ms last H.
  - rewrite run_nil, app_nil_r. reflexivity.
  - cbn [mk_ok] in H. apply andb_true_iff in H as [Hc Hr].
    change (lexed (TChar c :: r)) with (c :: lexed r).
    rewrite run_plain, IH by assumption. cbn [rev meaning map tchar]. rewrite <- app_assoc. reflexivity.
  - cbn [mk_ok] in H. apply andb_true_iff in H as [H Hr]. apply andb_true_iff in H as [He Hd].
    apply negb_true_iff in Hd. unfold lexed. cbn [flat_map lexed1 meaning map tchar]. fold (lexed r) (meaning r).
    unfold is_bracket in *. destruct ((c =? 91) || (c =? 93)) eqn:Eb; cbn [app].
    + (* an escaped bracket: the backslash is dropped here *)
      assert (Hb : c = 91 \/ c = 93) by (apply orb_true_iff in Eb; destruct Eb as [E|E]; apply N.eqb_eq in E; auto).
      rewrite (run_escaped c _ _ _ _ _ _ Hb), IH by exact Hr. cbn [rev]. rewrite <- app_assoc. reflexivity.
    + (* a character the lexer has already unescaped; if it is a backslash, no bracket follows (D27) *)
      apply orb_false_iff in Eb as [E91 _].
      rewrite run_char, IH; [cbn [rev]; rewrite <- app_assoc; reflexivity|exact Hr|exact E91|].
      destruct (c =? 92) eqn:E92; [|reflexivity]. apply lexed_head_not_bracket; assumption.
Qed.

Lemma parse_markup_toks ts : mk_ok ts = true ->
  exists attrs, parse_markup (lexed ts) = Some (trim_space (meaning ts), attrs).
Proof.
  intros H. eexists. exact (parse_markup_phases _ _ _ _ (run_toks ts _ _ _ _ _ H) eq_refl).
Qed.

Theorem literal_then_end t ts r tags :
  first_ok t = true -> lex_ok (hd_error r) (t :: ts) = true -> mk_ok (t :: ts) = true -> ends_line r tags ->
  literal_pipeline (write (t :: ts) ++ r) = Some (trim_space (meaning (t :: ts)), tags).
Proof.
  intros Hf Hl Hm Hr. unfold literal_pipeline. rewrite (lex_line_first t ts r Hf Hl).
  assert (Hl' : lex_ok (hd_error r) ts = true).
  { destruct t; cbn [lex_ok] in Hl; apply andb_true_iff in Hl as [_ Hl]; exact Hl. }
  rewrite (lex_text_toks ts r _ Hl'), Hr, rev_app_distr, !rev_involutive.
  change (lexed1 t ++ lexed ts) with (lexed (t :: ts)).
  destruct (parse_markup_toks (t :: ts) Hm) as [attrs E]. rewrite E. reflexivity.
Qed.

Theorem literal_text_resolved t ts :
  first_ok t = true -> lex_ok None (t :: ts) = true -> mk_ok (t :: ts) = true ->
  literal_pipeline (write (t :: ts)) = Some (trim_space (meaning (t :: ts)), []).
Proof.
  intros Hf Hl Hm. rewrite <- (app_nil_r (write _)). exact (literal_then_end t ts [] [] Hf Hl Hm ends_line_nil).
Qed.

Theorem literal_text_resolved_tags t ts t0 tags :
  first_ok t = true -> lex_ok (Some 35) (t :: ts) = true -> mk_ok (t :: ts) = true ->
  good_tag t0 -> Forall good_tag tags ->
  literal_pipeline (write (t :: ts) ++ 35 :: t0 ++ render_tags tags)
    = Some (trim_space (meaning (t :: ts)), t0 :: tags).
Proof.
  intros Hf Hl Hm H0 Hts. exact (literal_then_end t ts (35 :: _) _ Hf Hl Hm (ends_line_tags t0 tags H0 Hts)).
Qed.

Theorem literal_text_resolved_comment t ts cm :
  first_ok t = true -> lex_ok (Some 47) (t :: ts) = true -> mk_ok (t :: ts) = true ->
  literal_pipeline (write (t :: ts) ++ 47 :: 47 :: cm) = Some (trim_space (meaning (t :: ts)), []).
Proof.
  intros Hf Hl Hm. exact (literal_then_end t ts (47 :: 47 :: cm) _ Hf Hl Hm (ends_line_comment cm)).
Qed.

(* finding D27: the one excluded shape really fails - a\\]b means a\]b and comes out as a]b *)
Theorem escaped_backslash_before_bracket_refuted :
  let ts := [TChar 97; TEsc 92; TChar 93; TChar 98] in
  first_ok (TChar 97) = true /\ lex_ok None ts = true /\ mk_ok ts = false /\
  meaning ts = [97; 92; 93; 98] /\
  literal_pipeline (write ts) = Some ([97; 93; 98], []).
Proof. vm_compute. repeat split; reflexivity. Qed.

(* non-vacuity: every escapable character, escaped and plain forms, brackets, multi-byte text *)
Example literal_example :
  let ts := [TChar 32; TEsc 92; TEsc 91; TChar 97; TEsc 93; TChar 93; TChar 60; TChar 98; TChar 47; TEsc 47; TEsc 47;
             TEsc 35; TEsc 123; TChar 125; TEsc 62; TChar 62; TChar 26085; TEsc 60; TEsc 60; TChar 32] in
  first_ok (TChar 120) = true /\ lex_ok None (TChar 120 :: ts) = true /\ mk_ok (TChar 120 :: ts) = true /\
  literal_pipeline (write (TChar 120 :: ts)) = Some (trim_space (meaning (TChar 120 :: ts)), []).
Proof. vm_compute. repeat split; reflexivity. Qed.
