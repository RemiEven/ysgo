(* Induction on expressions: the arguments of a call are a nested list, which the generated
   principle does not descend into. *)
From Coq Require Import List.
From YS Require Import Yarn.Ast.
Import ListNotations.

Fixpoint expr_ind' (P : expr -> Prop)
  (Hv : forall v, P (EVal v)) (Hx : forall x, P (EVar x)) (Hnull : P ENull)
  (Hc : forall fn args, Forall P args -> P (ECall fn args))
  (Hn : forall e, P e -> P (ENeg e)) (Ht : forall e, P e -> P (ENot e))
  (Hb : forall o l r, P l -> P r -> P (EBin o l r)) (e : expr) : P e :=
  match e with
  | EVal v => Hv v
  | EVar x => Hx x
  | ENull => Hnull
  | ECall fn args =>
      Hc fn args ((fix go (l : list expr) : Forall P l :=
                     match l with
                     | [] => Forall_nil P
                     | a :: r => Forall_cons a (expr_ind' P Hv Hx Hnull Hc Hn Ht Hb a) (go r)
                     end) args)
  | ENeg x => Hn x (expr_ind' P Hv Hx Hnull Hc Hn Ht Hb x)
  | ENot x => Ht x (expr_ind' P Hv Hx Hnull Hc Hn Ht Hb x)
  | EBin o l r => Hb o l r (expr_ind' P Hv Hx Hnull Hc Hn Ht Hb l) (expr_ind' P Hv Hx Hnull Hc Hn Ht Hb r)
  end.
