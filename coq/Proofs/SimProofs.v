(* What a runner does next is a function of its continuation, the storer's contents (as a map), the
   pending command, the current node, the visit counts, the host's command behaviour and the
   remaining random stream - and of nothing else: not of the storer's call log, not of the host log,
   not of the variable checkpoint, not of how the store is laid out internally.
   Consequences (C07): two runners restored from one snapshot continue identically; a runner
   restored from a snapshot continues exactly as the original did from that node entry, for every
   choice sequence.  (C09: the run is a function of script, seed-derived stream, choices, host.) *)
From Coq Require Import List ZArith.
From YS Require Import Base.Sexp Num.F64 Yarn.Ast Yarn.Value Yarn.Eval Markup.LineParser Yarn.Runner Spec.SetSpec
     Proofs.ExprInd Proofs.EvalProofs Proofs.RunnerInv Proofs.SetProofs Proofs.StepProofs Proofs.FlowProofs
     Proofs.StorerProofs Proofs.SafetyProofs.
Import ListNotations.

Definition store_eq (a b : store) : Prop := forall k, st_get a k = st_get b k.

Lemma store_eq_set a b k v : store_eq a b -> store_eq (st_set a k v) (st_set b k v).
Proof.
  intros H n. destruct (str_eqb k n) eqn:E.
  - apply str_eqb_eq in E. subst n. rewrite !st_get_set. reflexivity.
  - rewrite !st_get_set_other by exact E. apply H.
Qed.

Definition out_sim {St A} (R : St -> St -> Prop) (r1 r2 : A * St) : Prop := fst r1 = fst r2 /\ R (snd r1) (snd r2).

Lemma out_sim_pair {St A} (R : St -> St -> Prop) (a : A) s1 s2 : R s1 s2 -> out_sim R (a, s1) (a, s2).
Proof. intros H. split; [reflexivity|exact H]. Qed.

(* from L : two results are similar, name the common outcome o, the two states a b and their
   relation Hs; the results must occur in the goal as they do in L *)
Tactic Notation "use_sim" constr(L) "as" ident(o) ident(a) ident(b) ident(Hs) :=
  let Ho := fresh "Ho" in let o' := fresh "o'" in
  destruct L as [Ho Hs];
  match type of Ho with fst ?x = fst ?y =>
    destruct x as [o a], y as [o' b]; cbn [fst snd] in Ho, Hs; subst o'
  end.

(* sequential composition as the models write it: similar first parts, continuations that keep
   similarity *)
Lemma out_sim_bind {St A B} (R : St -> St -> Prop) (r1 r2 : outcome A * St) (k1 k2 : A -> St -> outcome B * St) :
  out_sim R r1 r2 -> (forall a t1 t2, R t1 t2 -> out_sim R (k1 a t1) (k2 a t2)) ->
  out_sim R (match r1 with (Val a, t) => k1 a t | (Fail, t) => (Fail, t) | (Crash, t) => (Crash, t) end)
            (match r2 with (Val a, t) => k2 a t | (Fail, t) => (Fail, t) | (Crash, t) => (Crash, t) end).
Proof.
  intros H K. use_sim H as o t1 t2 Hs. destruct o as [a| |]; [exact (K a _ _ Hs)|exact (out_sim_pair R _ _ _ Hs)..].
Qed.

Definition fe_sim (e1 e2 : fenv) : Prop := rng e1 = rng e2.

Definition res_sim {A} : A * fenv -> A * fenv -> Prop := out_sim fe_sim.

Lemma draw_sim e1 e2 : fe_sim e1 e2 -> fst (draw e1) = fst (draw e2) /\ fe_sim (snd (draw e1)) (snd (draw e2)).
Proof.
  unfold fe_sim, draw. intros H. rewrite H. destruct (rng e2) eqn:E; cbn [fst snd rng]; split; try reflexivity.
  rewrite H, E. reflexivity.
Qed.

Lemma draw_bind_sim {A} (k : Z -> fenv -> A * fenv) e1 e2 :
  (forall v a b, fe_sim a b -> res_sim (k v a) (k v b)) -> fe_sim e1 e2 ->
  res_sim (let '(v, a) := draw e1 in k v a) (let '(v, b) := draw e2 in k v b).
Proof. intros Hk H. use_sim (draw_sim e1 e2 H) as v a b Hs. apply Hk, Hs. Qed.

Lemma int31n_sim fuel : forall n mx e1 e2, fe_sim e1 e2 -> res_sim (int31n_loop fuel n mx e1) (int31n_loop fuel n mx e2).
Proof.
  induction fuel as [|f IH]; intros n mx e1 e2 H; cbn [int31n_loop]; apply draw_bind_sim; try exact H; intros v a b Hab.
  - apply out_sim_pair, Hab.
  - destruct (mx <? v / 2 ^ 32)%Z; [apply IH|apply out_sim_pair]; exact Hab.
Qed.

Lemma int63n_sim fuel : forall n mx e1 e2, fe_sim e1 e2 -> res_sim (int63n_loop fuel n mx e1) (int63n_loop fuel n mx e2).
Proof.
  induction fuel as [|f IH]; intros n mx e1 e2 H; cbn [int63n_loop]; apply draw_bind_sim; try exact H; intros v a b Hab.
  - apply out_sim_pair, Hab.
  - destruct (mx <? v)%Z; [apply IH|apply out_sim_pair]; exact Hab.
Qed.

Lemma float64_sim fuel : forall e1 e2, fe_sim e1 e2 -> res_sim (float64_loop fuel e1) (float64_loop fuel e2).
Proof.
  induction fuel as [|f IH]; intros e1 e2 H; cbn [float64_loop]; apply draw_bind_sim; try exact H; intros v a b Hab.
  - apply out_sim_pair, Hab.
  - destruct (feqb _ fone); [apply IH|apply out_sim_pair]; exact Hab.
Qed.

Lemma intn_sim n e1 e2 : fe_sim e1 e2 -> res_sim (intn n e1) (intn n e2).
Proof.
  intros H. unfold intn. destruct (n <=? 2 ^ 31 - 1)%Z, (is_pow2 n).
  - apply draw_bind_sim; [intros; apply out_sim_pair; assumption|exact H].
  - apply int31n_sim, H.
  - apply draw_bind_sim; [intros; apply out_sim_pair; assumption|exact H].
  - apply int63n_sim, H.
Qed.

Definition opt_res_sim {A} (r1 r2 : option (A * fenv)) : Prop :=
  match r1, r2 with
  | Some a, Some b => res_sim a b
  | None, None => True
  | _, _ => False
  end.

Lemma call_probe_sim f args e1 e2 : fe_sim e1 e2 -> opt_res_sim (call_probe f args e1) (call_probe f args e2).
Proof.
  intros H. unfold call_probe.
  destruct (str_eqb f (STR "p")); [exact (out_sim_pair _ _ _ _ H)|].
  destruct (str_eqb f (STR "noret")); [exact (out_sim_pair _ _ _ _ H)|].
  destruct (str_eqb f (STR "fail")); [exact (out_sim_pair _ _ _ _ H)|exact I].
Qed.

Lemma brun_sim b e1 e2 : fe_sim e1 e2 -> opt_res_sim (brun b e1) (brun b e2).
Proof.
  intros H. destruct b as [|o|n k|]; cbn [brun opt_res_sim].
  - exact I.
  - exact (out_sim_pair _ _ _ _ H).
  - use_sim (intn_sim n e1 e2 H) as r a b Hs. exact (out_sim_pair _ _ _ _ Hs).
  - use_sim (float64_sim 16 e1 e2 H) as r a b Hs. exact (out_sim_pair _ _ _ _ Hs).
Qed.

Lemma call_builtin_sim v1 v2 f args e1 e2 : rvisits v1 = rvisits v2 -> fe_sim e1 e2 ->
  opt_res_sim (call_builtin v1 f args e1) (call_builtin v2 f args e2).
Proof.
  intros Hv H. destruct (call_builtin_shape (rvisits v2) f args) as (b & _ & E).
  rewrite (E v1 e1 Hv), (E v2 e2 eq_refl). apply brun_sim, H.
Qed.

Lemma call_function_sim v1 v2 f args e1 e2 : rvisits v1 = rvisits v2 -> fe_sim e1 e2 ->
  res_sim (call_function v1 f args e1) (call_function v2 f args e2).
Proof.
  intros Hv H. unfold call_function.
  pose proof (call_probe_sim f args e1 e2 H) as P.
  destruct (call_probe f args e1), (call_probe f args e2); cbn [opt_res_sim] in P; try contradiction; [exact P|].
  pose proof (call_builtin_sim v1 v2 f args e1 e2 Hv H) as B.
  destruct (call_builtin v1 f args e1), (call_builtin v2 f args e2); cbn [opt_res_sim] in B; try contradiction; [exact B|].
  apply out_sim_pair. exact H.
Qed.

Definition renv_sim (v1 v2 : renv) : Prop := store_eq (rvars v1) (rvars v2) /\ rvisits v1 = rvisits v2.

Lemma eval_list_sim_forall v1 v2 l :
  Forall (fun x => forall e1 e2, fe_sim e1 e2 -> res_sim (eval v1 x e1) (eval v2 x e2)) l ->
  forall e1 e2, fe_sim e1 e2 -> res_sim (eval_list v1 l e1) (eval_list v2 l e2).
Proof.
  induction 1 as [|x l Hx _ IH]; intros e1 e2 H; cbn [eval_list]; [apply out_sim_pair; exact H|].
  apply out_sim_bind; [exact (Hx e1 e2 H)|]. intros va b1 b2 He.
  apply out_sim_bind; [exact (IH b1 b2 He)|]. intros vr c1 c2 Hc. apply out_sim_pair, Hc.
Qed.

Lemma eval_sim v1 v2 : renv_sim v1 v2 -> forall x e1 e2, fe_sim e1 e2 -> res_sim (eval v1 x e1) (eval v2 x e2).
Proof.
  intros (Hs & Hv).
  induction x as [a|id| |f args IH|a IH|a IH|o l r IHl IHr] using expr_ind'; intros e1 e2 H.
  - apply out_sim_pair. exact H.
  - cbn [eval]. rewrite (Hs id). apply out_sim_pair. exact H.
  - apply out_sim_pair. exact H.
  - rewrite !eval_call_args. apply out_sim_bind; [exact (eval_list_sim_forall v1 v2 args IH e1 e2 H)|].
    intros vs b1 b2 He. use_sim (call_function_sim v1 v2 f vs b1 b2 Hv He) as q c1 c2 Hc.
    destruct q as [[r0|]| |]; apply out_sim_pair; exact Hc.
  - cbn [eval]. apply out_sim_bind; [exact (IH e1 e2 H)|]. intros [n|b|t] b1 b2 He; apply out_sim_pair, He.
  - cbn [eval]. apply out_sim_bind; [exact (IH e1 e2 H)|]. intros [n|b|t] b1 b2 He; apply out_sim_pair, He.
  - cbn [eval]. apply out_sim_bind; [exact (IHl e1 e2 H)|]. intros lv b1 b2 He.
    (* the left value decides on both sides alike whether the right operand runs *)
    match goal with |- context [match ?ls with Some _ => _ | None => _ end] => destruct ls as [res|] end;
      [apply out_sim_pair; exact He|].
    apply out_sim_bind; [exact (IHr b1 b2 He)|]. intros rv c1 c2 Hc. apply out_sim_pair, Hc.
Qed.

Lemma eval_list_sim v1 v2 : renv_sim v1 v2 -> forall l e1 e2, fe_sim e1 e2 -> res_sim (eval_list v1 l e1) (eval_list v2 l e2).
Proof. intros Hr l. apply eval_list_sim_forall, Forall_forall. intros x _. exact (eval_sim v1 v2 Hr x). Qed.

Definition sim (s1 s2 : dstate) : Prop :=
  store_eq (vars s1) (vars s2) /\ pending s1 = pending s2 /\ cur s1 = cur s2 /\ visits s1 = visits s2 /\
  sched s1 = sched s2 /\ hcmds s1 = hcmds s2 /\ fe_sim (fe s1) (fe s2).

Definition dres_sim {A} : A * dstate -> A * dstate -> Prop := out_sim sim.

Lemma sim_vars s1 s2 : sim s1 s2 -> store_eq (vars s1) (vars s2).
Proof. intros H. apply H. Qed.
Lemma sim_pending s1 s2 : sim s1 s2 -> pending s1 = pending s2.
Proof. intros H. apply H. Qed.
Lemma sim_cur s1 s2 : sim s1 s2 -> cur s1 = cur s2.
Proof. intros H. apply H. Qed.
Lemma sim_visits s1 s2 : sim s1 s2 -> visits s1 = visits s2.
Proof. intros H. apply H. Qed.
Lemma sim_sched s1 s2 : sim s1 s2 -> sched s1 = sched s2.
Proof. intros H. apply H. Qed.
Lemma sim_hcmds s1 s2 : sim s1 s2 -> hcmds s1 = hcmds s2.
Proof. intros H. apply H. Qed.
Lemma sim_fe s1 s2 : sim s1 s2 -> fe_sim (fe s1) (fe s2).
Proof. intros H. apply H. Qed.

Lemma sim_renv s1 s2 : sim s1 s2 -> renv_sim (renv_of s1) (renv_of s2).
Proof. intros H. split; [exact (sim_vars _ _ H)|exact (sim_visits _ _ H)]. Qed.

Lemma sim_upd_fe s1 s2 e1 e2 : sim s1 s2 -> fe_sim e1 e2 -> sim (upd_fe s1 e1) (upd_fe s2 e2).
Proof. intros H He. repeat split; first [exact He|apply H]. Qed.

Lemma eval_in_sim s1 s2 x : sim s1 s2 -> dres_sim (eval_in s1 x) (eval_in s2 x).
Proof.
  intros H. unfold eval_in.
  use_sim (eval_sim _ _ (sim_renv _ _ H) x (fe s1) (fe s2) (sim_fe _ _ H)) as o b1 b2 He.
  apply out_sim_pair, sim_upd_fe; assumption.
Qed.

Lemma render_parts_sim ps : forall s1 s2 acc, sim s1 s2 -> dres_sim (render_parts s1 ps acc) (render_parts s2 ps acc).
Proof.
  induction ps as [|[t|x] r IH]; intros s1 s2 acc H; cbn [render_parts].
  - apply out_sim_pair, H.
  - apply IH, H.
  - apply out_sim_bind; [exact (eval_in_sim s1 s2 x H)|]. intros v t1 t2 Ht. apply IH, Ht.
Qed.

Lemma render_line_sim s1 s2 l : sim s1 s2 -> dres_sim (render_line s1 l) (render_line s2 l).
Proof.
  intros H. unfold render_line. apply out_sim_bind; [exact (render_parts_sim (ltext l) s1 s2 [] H)|].
  intros txt t1 t2 Ht. destruct (parse_markup txt) as [[t attrs]|]; apply out_sim_pair, Ht.
Qed.

Lemma render_options_sim os : forall s1 s2, sim s1 s2 -> dres_sim (render_options s1 os) (render_options s2 os).
Proof.
  induction os as [|[l b] r IH]; intros s1 s2 H; cbn [render_options]; [apply out_sim_pair, H|].
  apply out_sim_bind; [exact (render_line_sim s1 s2 l H)|]. intros rl t1 t2 Ht. apply out_sim_bind.
  - destruct (lcond l) as [c|]; [|apply out_sim_pair, Ht].
    apply out_sim_bind; [exact (eval_in_sim t1 t2 c Ht)|]. intros v u1 u2 Hu. destruct v; apply out_sim_pair, Hu.
  - intros dd u1 u2 Hu. apply out_sim_bind; [exact (IH u1 u2 Hu)|].
    intros rest w1 w2 Hw. apply out_sim_pair, Hw.
Qed.

Lemma sim_upd_vars s1 s2 k v ev1 ev2 : sim s1 s2 ->
  sim (upd_vars s1 (st_set (vars s1) k v) ev1) (upd_vars s2 (st_set (vars s2) k v) ev2).
Proof. intros H. repeat split; try apply H. apply store_eq_set, H. Qed.

Lemma exec_set_sim x op e s1 s2 : sim s1 s2 -> dres_sim (exec_set x op e s1) (exec_set x op e s2).
Proof.
  intros H. rewrite !exec_set_shape. cbn zeta. use_sim (eval_in_sim s1 s2 e H) as o t t0 Hs. cbn [fst snd].
  destruct o as [v| |]; [|apply out_sim_pair, Hs..].
  rewrite (sim_vars _ _ Hs x).
  destruct (set_spec _ op v) as [r|]; apply out_sim_pair; [apply sim_upd_vars|]; exact Hs.
Qed.

Lemma exec_jump_sim d e s1 s2 : sim s1 s2 -> dres_sim (exec_jump d e s1) (exec_jump d e s2).
Proof.
  intros H. rewrite !exec_jump_shape. cbn zeta. use_sim (eval_in_sim s1 s2 e H) as o t t0 Hs. cbn [fst snd].
  destruct o as [[n|b|tx]| |]; try (apply out_sim_pair, Hs).
  destruct (find_node d tx) as [nd|]; [|apply out_sim_pair, Hs].
  apply out_sim_pair. repeat split; cbn [enter vars pending cur visits sched hcmds fe]; try apply Hs.
  rewrite (sim_cur _ _ Hs), (sim_visits _ _ Hs). reflexivity.
Qed.

Lemma exec_if_sim cs : forall s1 s2, sim s1 s2 -> dres_sim (exec_if cs s1) (exec_if cs s2).
Proof.
  induction cs as [|[c b] r IH]; intros s1 s2 H; cbn [exec_if]; [apply out_sim_pair, H|].
  apply out_sim_bind; [exact (eval_in_sim s1 s2 c H)|]. intros v t1 t2 Ht.
  destruct v as [n|[|]|tx]; first [apply out_sim_pair, Ht|apply IH, Ht].
Qed.

Lemma eval_list_in_sim s1 s2 l : sim s1 s2 ->
  res_sim (eval_list (renv_of s1) l (fe s1)) (eval_list (renv_of s2) l (fe s2)).
Proof. intros H. exact (eval_list_sim _ _ (sim_renv _ _ H) l _ _ (sim_fe _ _ H)). Qed.

Lemma sim_upd_pending s1 s2 p : sim s1 s2 -> sim (upd_pending s1 p) (upd_pending s2 p).
Proof. intros H. repeat split; apply H. Qed.

Lemma exec_command_sim es s1 s2 : sim s1 s2 -> dres_sim (exec_command es s1) (exec_command es s2).
Proof.
  intros H. unfold exec_command. destruct es as [|e0 es']; [apply out_sim_pair, H|].
  use_sim (eval_list_in_sim s1 s2 (e0 :: es') H) as o b1 b2 He.
  pose proof (sim_upd_fe s1 s2 b1 b2 H He) as Hs.
  destruct o as [[|[n|b|name] args]| |]; try (apply out_sim_pair, Hs).
  destruct (str_eqb name (STR "stop")); [apply out_sim_pair, Hs|].
  rewrite (sim_hcmds _ _ Hs).
  destruct (mem_str name (hcmds (upd_fe s2 b2))).
  - (* a host command: both sides log the call and take the same schedule entry *)
    rewrite (sim_sched _ _ Hs).
    destruct (sched (upd_fe s2 b2)) as [|[[|k] [|]] rest]; cbn [tl];
      (apply out_sim_pair; repeat split; cbn [vars pending cur visits sched hcmds fe]; first [apply Hs|exact (sim_fe _ _ Hs)]).
  - destruct (str_eqb name (STR "wait")); [|apply out_sim_pair, Hs].
    destruct args as [|[n|b|tx] [|? ?]]; try (apply out_sim_pair, Hs).
    apply out_sim_pair, sim_upd_pending, Hs.
Qed.

Lemma exec_call_sim f a s1 s2 : sim s1 s2 -> dres_sim (exec_call f a s1) (exec_call f a s2).
Proof.
  intros H. unfold exec_call. use_sim (eval_list_in_sim s1 s2 a H) as o b1 b2 He.
  destruct o as [vs| |]; try (apply out_sim_pair, sim_upd_fe; assumption).
  use_sim (call_function_sim (renv_of s1) (renv_of s2) f vs b1 b2 (sim_visits _ _ H) He) as q c1 c2 Hce.
  apply out_sim_pair, sim_upd_fe; assumption.
Qed.

Lemma poll_sim s1 s2 : sim s1 s2 -> dres_sim (poll s1) (poll s2).
Proof.
  intros H. unfold poll. rewrite (sim_pending _ _ H).
  destruct (pending s2) as [[[|k] [|]]|]; apply out_sim_pair; try exact H; apply sim_upd_pending, H.
Qed.

Definition rsim (m1 m2 : rstate) : Prop :=
  stack m1 = stack m2 /\ last_opts m1 = last_opts m2 /\ sim (dat m1) (dat m2).

Lemma rsim_mk st lo s1 s2 : sim s1 s2 -> rsim (mk st lo s1) (mk st lo s2).
Proof. intros H. split; [reflexivity|]. split; [reflexivity|exact H]. Qed.

Lemma exec_stmt_sim d st s1 s2 : sim s1 s2 -> dres_sim (exec_stmt d st s1) (exec_stmt d st s2).
Proof.
  intros H. destruct st as [l|os|x op e|e|cs|es|fn args|x e]; cbn [exec_stmt].
  - use_sim (render_line_sim s1 s2 l H) as o u1 u2 Hs. rewrite (sim_cur _ _ Hs). destruct o; apply out_sim_pair, Hs.
  - use_sim (render_options_sim os s1 s2 H) as o u1 u2 Hs. rewrite (sim_cur _ _ Hs). destruct o; apply out_sim_pair, Hs.
  - use_sim (exec_set_sim x op e s1 s2 H) as o u1 u2 Hs. destruct o; apply out_sim_pair, Hs.
  - use_sim (exec_jump_sim d e s1 s2 H) as o u1 u2 Hs. destruct o; apply out_sim_pair, Hs.
  - use_sim (exec_if_sim cs s1 s2 H) as o u1 u2 Hs. destruct o; apply out_sim_pair, Hs.
  - use_sim (exec_command_sim es s1 s2 H) as o u1 u2 Hs. destruct o; apply out_sim_pair, Hs.
  - use_sim (exec_call_sim fn args s1 s2 H) as o u1 u2 Hs. destruct o; apply out_sim_pair, Hs.
  - use_sim (exec_set_sim x SAssign e s1 s2 H) as o u1 u2 Hs. destruct o; apply out_sim_pair, Hs.
Qed.

Theorem next_sim d : forall f m1 m2 c, rsim m1 m2 ->
  fst (next d f m1 c) = fst (next d f m2 c) /\ rsim (snd (next d f m1 c)) (snd (next d f m2 c)).
Proof.
  induction f as [|f IH]; intros m1 m2 c H; [split; [reflexivity|exact H]|]. destruct H as (Hst & Hlo & Hd).
  rewrite !next_S. unfold next_step. rewrite Hst, Hlo.
  use_sim (poll_sim _ _ Hd) as o t t0 Hs. destruct o as [r0|]; [apply (out_sim_pair rsim), rsim_mk, Hs|].
  destruct (chosen_body (last_opts m2) c) as [b|]; [|apply (out_sim_pair rsim), rsim_mk, Hs].
  destruct (if is_nil b then stack m2 else b :: stack m2) as [|[|st q] rest];
    [apply (out_sim_pair rsim), rsim_mk, Hs | apply IH, rsim_mk, Hs |].
  use_sim (exec_stmt_sim d st t t0 Hs) as a u1 u2 Hs2.
  destruct a as [r lo|[b'|]|b'|]; cbn [apply_ctl resume];
    first [apply IH, rsim_mk, Hs2 | apply (out_sim_pair rsim), rsim_mk, Hs2].
Qed.

Theorem iter_next_sim d f : forall cs m1 m2, rsim m1 m2 ->
  fst (iter_next d f m1 cs) = fst (iter_next d f m2 cs) /\ rsim (snd (iter_next d f m1 cs)) (snd (iter_next d f m2 cs)).
Proof.
  induction cs as [|c cs IH]; intros m1 m2 H; cbn [iter_next]; [split; [reflexivity|exact H]|].
  use_sim (next_sim d f m1 m2 c H) as o n1 n2 Hs. use_sim (IH n1 n2 Hs) as p k1 k2 Hs2.
  split; [reflexivity|exact Hs2].
Qed.

(* same host behaviour to come and same remaining random stream *)
Definition same_env (s1 s2 : dstate) : Prop :=
  sched s1 = sched s2 /\ hcmds s1 = hcmds s2 /\ rng (fe s1) = rng (fe s2).

Lemma restore_rsim d m1 m2 sn m1' m2' :
  restore_at d m1 sn = (true, m1') -> restore_at d m2 sn = (true, m2') -> same_env (dat m1) (dat m2) ->
  rsim m1' m2'.
Proof.
  unfold restore_at. destruct (find_node d (snode sn)) as [n|]; [|discriminate].
  intros H1 H2 (E1 & E2 & E3). inversion H1; inversion H2; subst.
  split; [reflexivity|]. split; [reflexivity|]. unfold sim. cbn [dat mk vars pending cur visits sched hcmds fe].
  split; [intros k; reflexivity|]. repeat split; assumption.
Qed.

Theorem restored_runners_agree d m1 m2 sn m1' m2' :
  restore_at d m1 sn = (true, m1') -> restore_at d m2 sn = (true, m2') -> same_env (dat m1) (dat m2) ->
  forall f cs, fst (iter_next d f m1' cs) = fst (iter_next d f m2' cs).
Proof. intros H1 H2 E f cs. apply iter_next_sim. exact (restore_rsim d m1 m2 sn m1' m2' H1 H2 E). Qed.

Lemma rebuild_store_eq st : store_ok st ->
  store_eq (fold_left (fun st kv => st_set st (fst kv) (snd kv)) (st_values st) empty_store) st.
Proof.
  intros H k. rewrite (st_get_rebuild k _ _ (wf_st_values st)). rewrite (get_values_agrees st k H).
  destruct (st_get st k); reflexivity.
Qed.

(* a runner standing at the entry of a node: what NewDialogueRunner and every jump produce *)
Definition at_node_entry (d : dialogue) (m : rstate) : Prop :=
  exists n, find_node d (cur (dat m)) = Some n /\ stack m = [body n] /\ last_opts m = None /\
            pending (dat m) = None /\ vsnap (dat m) = st_values (vars (dat m)).

(* restoring the snapshot of a runner standing at a node entry gives a runner similar to it: the
   store is rebuilt from the checkpoint, which at a node entry is the store's contents *)
Lemma restore_snapshot_rsim d m0 m m' :
  at_node_entry d m0 -> store_ok (vars (dat m0)) ->
  restore_at d m (take_snapshot (dat m0)) = (true, m') -> same_env (dat m) (dat m0) -> rsim m' m0.
Proof.
  intros (n & Hn & Hst & Hlo & Hp & Hv) Hok Hr (E1 & E2 & E3).
  unfold restore_at, take_snapshot in Hr. cbn [snode svars svisits] in Hr. rewrite Hn in Hr. inversion Hr; subst m'. clear Hr.
  split; [cbn [stack mk]; symmetry; exact Hst|]. split; [cbn [last_opts mk]; symmetry; exact Hlo|].
  unfold sim. cbn [dat mk vars pending cur visits sched hcmds fe].
  split; [rewrite Hv; apply rebuild_store_eq; exact Hok|].
  split; [symmetry; exact Hp|]. split; [apply (find_node_title _ _ _ Hn)|]. split; [reflexivity|].
  split; [exact E1|]. split; [exact E2|exact E3].
Qed.

Theorem restore_continues_as_original d m0 m m' :
  at_node_entry d m0 -> store_ok (vars (dat m0)) ->
  restore_at d m (take_snapshot (dat m0)) = (true, m') -> same_env (dat m) (dat m0) ->
  forall f cs, fst (iter_next d f m' cs) = fst (iter_next d f m0 cs).
Proof. intros Ha Hok Hr E f cs. apply iter_next_sim. exact (restore_snapshot_rsim d m0 m m' Ha Hok Hr E). Qed.

(* the hypotheses are what the code establishes: a fresh runner stands at a node entry ... *)
Lemma new_runner_at_entry d init stream sc cmds m : new_runner d init stream sc cmds = Some m ->
  (forall n r, d = n :: r -> find_node d (title n) = Some n) -> at_node_entry d m.
Proof.
  unfold new_runner. destruct d as [|n r]; [discriminate|]. intros H Hf. inversion H; subst. clear H.
  exists n. cbn. repeat split. apply (Hf n r eq_refl).
Qed.

(* ... and so does a runner right after any jump *)
Lemma after_jump_at_entry d e s b s' : exec_jump d e s = (Some b, s') -> at_node_entry d (mk [b] None s') \/ pending s' <> None.
Proof.
  intros H. destruct (pending s') eqn:Ep; [right; discriminate|left].
  destruct (jump_takes_checkpoint d e s b s' H) as (Hv & n & Hn & Hb). exists n. cbn. subst b. repeat split; assumption.
Qed.
