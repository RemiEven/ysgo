(* C11: visited_count(n) = (count at the last restore) + number of successful jumps since then that
   left n, for tracked nodes; untracked nodes and non-nodes never change; visited = count > 0. *)
From Coq Require Import List ZArith Lia.
From YS Require Import Base.Sexp Num.F64 Yarn.Ast Yarn.Eval Yarn.Runner Proofs.AListProofs Proofs.RunnerInv Proofs.StepProofs.
Import ListNotations.
Local Open Scope Z_scope.

Definition vget (m : alist Z) (n : str) : Z := match aget m n with Some c => c | None => 0 end.

Fixpoint count_left (n : str) (jl : list str) : Z :=
  match jl with
  | [] => 0
  | x :: r => (if str_eqb x n then 1 else 0) + count_left n r
  end.

Definition visit_spec (d : dialogue) (s : dstate) (n : str) : Z :=
  vget (vbase s) n + (if tracked d n then count_left n (jlog s) else 0).

Definition VInv (d : dialogue) (s : dstate) : Prop := forall n, vget (visits s) n = visit_spec d s n.

Lemma vget_bump m k n : vget (bump m k) n = vget m n + (if str_eqb k n then 1 else 0).
Proof.
  unfold vget, bump. rewrite aget_aset. destruct (str_eqb k n) eqn:E.
  - apply str_eqb_eq in E. subst. destruct (aget m n); lia.
  - lia.
Qed.

Lemma tracked_eqb d a b : str_eqb a b = true -> tracked d a = tracked d b.
Proof. intros E. apply str_eqb_eq in E. subst. reflexivity. Qed.

(* the only change that touches the counters: entering a node counts the node being left *)
Lemma enter_vinv d n s : VInv d s -> VInv d (enter d n s).
Proof.
  intros H k. specialize (H k). unfold visit_spec in *. cbn [enter visits vbase jlog count_left].
  destruct (str_eqb (cur s) k) eqn:E.
  - (* k is the node being left: counted exactly when it is tracked *)
    rewrite <- (tracked_eqb d _ _ E) in *. destruct (tracked d (cur s)); [rewrite vget_bump, E|]; lia.
  - (* any other name: the bump does not reach it *)
    destruct (tracked d (cur s)); [rewrite vget_bump, E|]; destruct (tracked d k); lia.
Qed.

Theorem next_vinv d fm m c : VInv d (dat m) -> VInv d (dat (snd (next d fm m c))).
Proof.
  apply (next_preserves d (VInv d)).
  intros s s' [e p sc|e k v|e n] H; [exact H|exact H|exact (enter_vinv d n _ H)].
Qed.

Lemma new_runner_vinv d init stream sc cmds m :
  new_runner d init stream sc cmds = Some m -> VInv d (dat m).
Proof.
  unfold new_runner. destruct d as [|n rest]; [discriminate|]. intros H. inversion H; subst.
  intros k. unfold visit_spec. cbn. destruct (tracked (n :: rest) k); reflexivity.
Qed.

Lemma restore_vinv d m sn m' : restore_at d m sn = (true, m') -> VInv d (dat m').
Proof.
  unfold restore_at. destruct (find_node d (snode sn)) as [nd|]; [|discriminate].
  intros H. inversion H; subst. intros k. unfold visit_spec. cbn.
  destruct (tracked d k); lia.
Qed.

Lemma restore_fail_unchanged d m sn m' : restore_at d m sn = (false, m') -> m' = m.
Proof.
  unfold restore_at. destruct (find_node d (snode sn)); [discriminate|]. intros H. inversion H. reflexivity.
Qed.

(* histories: any interleaving of Next calls and restores *)
Inductive hop := HNext (c : Z) | HRestore (sn : snapshot).

Definition hstep (d : dialogue) (fuel : nat) (m : rstate) (o : hop) : rstate :=
  match o with
  | HNext c => snd (next d fuel m c)
  | HRestore sn => snd (restore_at d m sn)
  end.

Theorem history_vinv d fuel : forall ops m, VInv d (dat m) -> VInv d (dat (fold_left (hstep d fuel) ops m)).
Proof.
  induction ops as [|o ops IH]; intros m H; [exact H|].
  cbn [fold_left]. apply IH. destruct o as [c|sn]; cbn [hstep].
  - apply next_vinv. exact H.
  - destruct (restore_at d m sn) as [[|] m'] eqn:E; cbn [snd].
    + apply (restore_vinv d m sn m' E).
    + rewrite (restore_fail_unchanged d m sn m' E). exact H.
Qed.

Lemma visited_count_reads v n e :
  call_builtin v (STR "visited_count") [VStr n] e = Some (Val (Some (VNum (of_Z (vget (rvisits v) n)))), e).
Proof. reflexivity. Qed.

Lemma visited_iff_positive v n e :
  call_builtin v (STR "visited") [VStr n] e = Some (Val (Some (VBool (0 <? vget (rvisits v) n))), e).
Proof. unfold vget. cbn. destruct (aget (rvisits v) n); reflexivity. Qed.

Theorem untracked_never_counts d s n : VInv d s -> tracked d n = false -> vget (visits s) n = vget (vbase s) n.
Proof. intros H Ht. rewrite (H n). unfold visit_spec. rewrite Ht. lia. Qed.

Theorem non_node_never_counts d s n : VInv d s -> find_node d n = None -> vget (visits s) n = vget (vbase s) n.
Proof. intros H Hf. apply (untracked_never_counts d s n H). unfold tracked. rewrite Hf. reflexivity. Qed.

Lemma count_left_app n a b : count_left n (a ++ b) = count_left n a + count_left n b.
Proof. induction a as [|x r IH]; cbn [app count_left]; [lia|]. rewrite IH. lia. Qed.

(* no invariant is needed: the only change to the counters is the bump on entering a node *)
Theorem counts_monotone d fm m c n :
  vget (visits (dat m)) n <= vget (visits (dat (snd (next d fm m c)))) n.
Proof.
  apply (next_preserves d (fun s => vget (visits (dat m)) n <= vget (visits s) n)); [|lia].
  intros s s' [e p sc|e k v|e k] H; [exact H|exact H|]. cbn [enter visits upd_fe cur].
  destruct (tracked d (cur s)); [rewrite vget_bump; destruct (str_eqb (cur s) n)|]; lia.
Qed.
