(* C03: assignment statements store what SetSpec says with exactly one Set* call, a failing
   statement leaves the store and the storer log untouched, types are stable, the in-memory storer
   never holds a name under two types, reads go through the storer. *)
From Coq Require Import List.
From YS Require Import Base.Sexp Yarn.Ast Yarn.Value Yarn.Eval Yarn.Runner Spec.SetSpec Proofs.AListProofs Proofs.RunnerInv.
Import ListNotations.

Definition sevent_of (k : str) (v : value) : sevent :=
  match v with VNum n => SetN k n | VBool b => SetB k b | VStr x => SetS k x end.

(* one Set* call on the storer, by a set statement or by the host *)
Definition host_write (s : dstate) (k : str) (v : value) : dstate :=
  upd_vars s (st_set (vars s) k v) (sevent_of k v).

Theorem exec_set_spec x op e s :
  let '(o, s1) := eval_in s e in
  match o with
  | Val v =>
      match set_spec (st_get (vars s1) x) op v with
      | Some r => exec_set x op e s = (true, upd_vars s1 (st_set (vars s1) x r) (sevent_of x r))
      | None => exec_set x op e s = (false, s1)
      end
  | _ => exec_set x op e s = (false, s1)
  end.
Proof.
  unfold exec_set. destruct (eval_in s e) as [[v| |] s1]; try reflexivity.
  destruct (st_get (vars s1) x) as [[p|p|p]|]; destruct op; destruct v as [n|b|t]; reflexivity.
Qed.

Lemma exec_set_shape x op e s :
  exec_set x op e s =
    let s1 := snd (eval_in s e) in
    match fst (eval_in s e) with
    | Val v => match set_spec (st_get (vars s1) x) op v with
               | Some r => (true, host_write s1 x r)
               | None => (false, s1)
               end
    | _ => (false, s1)
    end.
Proof.
  pose proof (exec_set_spec x op e s) as H.
  destruct (eval_in s e) as [[v| |] s1]; cbn [fst snd]; [destruct (set_spec _ op v)|..]; exact H.
Qed.

Lemma exec_set_cases x op e s : exists e1,
  exec_set x op e s = (false, upd_fe s e1) \/ exists r, exec_set x op e s = (true, host_write (upd_fe s e1) x r).
Proof.
  rewrite exec_set_shape. cbn zeta. destruct (eval_in_ok s e) as [_ E]. exists (fe (snd (eval_in s e))). rewrite <- E.
  destruct (fst (eval_in s e)) as [v| |]; [destruct (set_spec _ op v) as [r|]|..];
    [right; exists r; reflexivity|left; reflexivity..].
Qed.

Theorem failed_set_frame x op e s s' : exec_set x op e s = (false, s') ->
  vars s' = vars s /\ slog s' = slog s.
Proof.
  destruct (exec_set_cases x op e s) as [e1 [->|[r ->]]]; [|discriminate].
  intros [= <-]. split; reflexivity.
Qed.

Theorem ok_set_one_write x op e s s' : exec_set x op e s = (true, s') ->
  exists r, slog s' = sevent_of x r :: slog s /\ vars s' = st_set (vars s) x r.
Proof.
  destruct (exec_set_cases x op e s) as [e1 [->|[r ->]]]; [discriminate|].
  intros [= <-]. exists r. split; reflexivity.
Qed.

Theorem set_spec_type_stable p op v r : set_spec (Some p) op v = Some r -> same_type p r = true.
Proof. destruct p, op, v; cbn; intros H; inversion H; reflexivity. Qed.

Theorem compound_unknown_is_error op v : op <> SAssign -> set_spec None op v = None.
Proof. destruct op; [congruence|reflexivity..]. Qed.

(* the in-memory storer: a name lives in at most one of the three maps *)
Definition single (st : store) : Prop :=
  forall k, match aget (nums st) k, aget (bools st) k, aget (strs st) k with
            | Some _, None, None | None, Some _, None | None, None, Some _ | None, None, None => True
            | _, _, _ => False
            end.

Lemma single_empty : single empty_store.
Proof. intros k. exact I. Qed.

Lemma single_set st k v : single st -> single (st_set st k v).
Proof.
  intros H n. specialize (H n). destruct v; cbn [st_set st_set_num st_set_bool st_set_str nums bools strs];
    rewrite ?aget_aset, ?aget_adel; destruct (str_eqb k n); try exact I; exact H.
Qed.

Lemma writes_inv (Q : store -> Prop) : (forall st k v, Q st -> Q (st_set st k v)) ->
  forall ws st, Q st -> Q (fold_left (fun st kv => st_set st (fst kv) (snd kv)) ws st).
Proof. intros Hset. induction ws as [|[k v] ws IH]; intros st H; [exact H|]. exact (IH _ (Hset _ k v H)). Qed.

Theorem single_after_writes ws : single (fold_left (fun st kv => st_set st (fst kv) (snd kv)) ws empty_store).
Proof. exact (writes_inv single single_set ws _ single_empty). Qed.

Theorem st_get_set st k v : st_get (st_set st k v) k = Some v.
Proof.
  destruct v; unfold st_get; cbn [st_set st_set_num st_set_bool st_set_str nums bools strs];
    rewrite ?aget_aset_same, ?aget_adel_same; reflexivity.
Qed.

Theorem st_get_set_other st k v n : str_eqb k n = false -> st_get (st_set st k v) n = st_get st n.
Proof.
  intros E. destruct v; unfold st_get; cbn [st_set st_set_num st_set_bool st_set_str nums bools strs];
    rewrite ?aget_aset, ?aget_adel, E; reflexivity.
Qed.

(* reads go through the storer: a variable evaluates to what the store holds now, so a value the
   host writes between two steps is what the script reads next *)
Theorem eval_var_reads_store v x e : eval v (EVar x) e = (match st_get (rvars v) x with Some a => Val a | None => Fail end, e).
Proof. reflexivity. Qed.

Theorem host_write_visible s k v : fst (eval_in (host_write s k v) (EVar k)) = Val v.
Proof. unfold eval_in, host_write. cbn. rewrite st_get_set. reflexivity. Qed.

Lemma single_restore (m : alist value) : single (fold_left (fun st kv => st_set st (fst kv) (snd kv)) m empty_store).
Proof. apply single_after_writes. Qed.
