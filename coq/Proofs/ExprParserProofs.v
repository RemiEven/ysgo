(* C02 / C08, grouping of operators: the expression rule of the generated parser (Syntax/ExprParser.v)
   gives back every expression tree from every way of writing it down in which parentheses are
   placed where the precedence table requires them - and anywhere else one likes (redundant
   parentheses). Proved for any table satisfying `wf_table`; Props/C02.v instantiates it with the
   table extracted from the Go source.
   The fuel: more of it never changes an answer (parse_mono), and reading a written form costs two
   units per token on top of what its continuation needs (prints_parse_fuel, the one induction over
   written forms); the statements "for all sufficient fuel" are that theorem with the amount forgotten. *)
From Coq Require Import List Arith Lia.
From YS Require Import Yarn.Ast Syntax.ExprParser Proofs.ExprInd.
Import ListNotations.

Section Proofs.
  Variables (lvl rprec : binop -> nat) (negp notp : nat).

  (* the right operand is parsed strictly tighter than the operator's own level (left associativity),
     the operand of a prefix operator tighter than every binary operator *)
  Definition wf_table : Prop :=
    (forall o, rprec o = S (lvl o)) /\ (forall o, lvl o < negp) /\ (forall o, lvl o < notp).

  Notation PE := (parse_expr lvl rprec negp notp).
  Notation PP := (parse_primary lvl rprec negp notp).
  Notation PL := (parse_loop lvl rprec negp notp).
  Notation PA := (parse_args lvl rprec negp notp).

  Definition ev {A} (g : nat -> option A) (x : A) : Prop := exists n, forall f, n <= f -> g f = Some x.

  Definition stops (p : nat) (ts : list tok) : Prop :=
    match ts with TOp o :: _ => lvl o < p | _ => True end.

  Definition starts_expr (t : tok) : Prop := t <> TRP /\ t <> TComma.

  (* more fuel never changes an answer: a call either fails with f, or answers the same with f' >= f *)
  Lemma parse_mono f : forall f', f <= f' ->
    (forall p ts, PE f p ts = None \/ PE f' p ts = PE f p ts) /\
    (forall ts, PP f ts = None \/ PP f' ts = PP f ts) /\
    (forall p l ts, PL f p l ts = None \/ PL f' p l ts = PL f p l ts) /\
    (forall b ts, PA f b ts = None \/ PA f' b ts = PA f b ts).
  Proof.
    induction f as [|f IH]; intros f' Hf; [repeat split; left; reflexivity|].
    destruct f' as [|f']; [lia|]. destruct (IH f' ltac:(lia)) as (E & P & L & A).
    assert (A2 : forall r, let g f := match PE f 0 r with
                                      | Some (e, r2) => match PA f false r2 with Some (es, r3) => Some (e :: es, r3) | None => None end
                                      | None => None end in g f = None \/ g f' = g f).
    { intros r; cbv zeta beta. destruct (E 0 r) as [->| ->]; [left; reflexivity|].
      destruct (PE f 0 r) as [[e r2]|]; [|left; reflexivity].
      destruct (A false r2) as [->| ->]; [left|right]; reflexivity. }
    repeat split.
    - (* cbn leaves the sibling parsers as bare fixpoints; fold names them again *)
      intros p ts. cbn [parse_expr]; fold PP PL. destruct (P ts) as [->| ->]; [left; reflexivity|].
      destruct (PP f ts) as [[l r]|]; [apply L|left; reflexivity].
    - intros ts. cbn [parse_primary]; fold PE PA.
      destruct ts as [|[| | | |[]|a|fn] r]; try (right; reflexivity).
      + destruct (E 0 r) as [->| ->]; [left|right]; reflexivity.
      + destruct (E notp r) as [->| ->]; [left|right]; reflexivity.
      + destruct (E negp r) as [->| ->]; [left|right]; reflexivity.
      + destruct r as [|[] r]; try (right; reflexivity). destruct (A true r) as [->| ->]; [left|right]; reflexivity.
    - intros p l ts. cbn [parse_loop]; fold PE PL. destruct ts as [|[| | | |o| |] r]; try (right; reflexivity).
      destruct (p <=? lvl o); [|right; reflexivity].
      destruct (E (rprec o) r) as [->| ->]; [left; reflexivity|].
      destruct (PE f (rprec o) r) as [[rhs r2]|]; [apply L|left; reflexivity].
    - intros b ts. cbn [parse_args]; fold PE PA. destruct ts as [|[] r]; try apply A2;
        destruct b; try (right; reflexivity); apply A2.
  Qed.

  Lemma PE_mono f f' p ts x : f <= f' -> PE f p ts = Some x -> PE f' p ts = Some x.
  Proof. intros H. destruct (proj1 (parse_mono f f' H) p ts); congruence. Qed.
  Lemma PL_mono f f' p l ts x : f <= f' -> PL f p l ts = Some x -> PL f' p l ts = Some x.
  Proof. intros H. destruct (proj1 (proj2 (proj2 (parse_mono f f' H))) p l ts); congruence. Qed.
  Lemma PA_mono f f' b ts x : f <= f' -> PA f b ts = Some x -> PA f' b ts = Some x.
  Proof. intros H. destruct (proj2 (proj2 (proj2 (parse_mono f f' H))) b ts); congruence. Qed.

  Lemma PE_S f p ts : PE (S f) p ts = match PP f ts with Some (lhs, r) => PL f p lhs r | None => None end.
  Proof. reflexivity. Qed.

  Lemma PL_stop p lhs ts : stops p ts -> PL 1 p lhs ts = Some (lhs, ts).
  Proof.
    intros H. cbn [parse_loop]. destruct ts as [|[] r]; try reflexivity.
    cbn [stops] in H. destruct (Nat.leb_spec p (lvl o)); [lia|reflexivity].
  Qed.

  (* Writing an expression down.
     Prints q e ts k: ts is a way of writing e in a position that demands level q; k is None when
     the written form is closed (atom, call, parenthesised, prefix operator) and Some l when it is a
     bare binary operation of level l. Parentheses may be added around anything (P_paren). *)
  Inductive Prints : nat -> expr -> list tok -> option nat -> Prop :=
  | P_atom q a : Prints q (expr_of_atom a) [TAtom a] None
  | P_paren q e ts k : Prints 0 e ts k -> Prints q e (TLP :: ts ++ [TRP]) None
  | P_neg q e ts k : Prints negp e ts k -> Prints q (ENeg e) (TOp OSub :: ts) None
  | P_not q e ts k : Prints notp e ts k -> Prints q (ENot e) (TNot :: ts) None
  | P_call q fn args tss : PrintsArgs args tss -> Prints q (ECall fn args) (TFunc fn :: TLP :: tss ++ [TRP]) None
  | P_bin q o l r tl tr kl kr :
      q <= lvl o -> Prints (lvl o) l tl kl -> Prints (rprec o) r tr kr ->
      Prints q (EBin o l r) (tl ++ TOp o :: tr) (Some (lvl o))
  with PrintsArgs : list expr -> list tok -> Prop :=
  | PA_nil : PrintsArgs [] []
  | PA_cons e ts k es tss : Prints 0 e ts k -> PrintsMore es tss -> PrintsArgs (e :: es) (ts ++ tss)
  with PrintsMore : list expr -> list tok -> Prop :=
  | PM_nil : PrintsMore [] []
  | PM_cons e ts k es tss : Prints 0 e ts k -> PrintsMore es tss -> PrintsMore (e :: es) (TComma :: ts ++ tss).

  Scheme Prints_mut := Minimality for Prints Sort Prop
    with PrintsArgs_mut := Minimality for PrintsArgs Sort Prop
    with PrintsMore_mut := Minimality for PrintsMore Sort Prop.
  Combined Scheme Prints_all from Prints_mut, PrintsArgs_mut, PrintsMore_mut.

  (* what may follow a written form for it to be read as written: after a bare binary operation of
     level k, no operator that binds tighter than k *)
  Definition follow_ok (k : option nat) (rest : list tok) : Prop :=
    match k, rest with
    | Some k, TOp o :: _ => lvl o <= k
    | _, _ => True
    end.

  Lemma prints_bare q e ts k : Prints q e ts (Some k) -> exists o, k = lvl o /\ q <= lvl o.
  Proof. intros H. inversion H; subst. eauto. Qed.

  (* where nothing continues the loop at level q, anything may follow a form written for level q *)
  Lemma stops_follow q e ts k rest : Prints q e ts k -> stops q rest -> follow_ok k rest.
  Proof.
    destruct k as [k|]; [|intros _ _; exact I]. intros H Hs. apply prints_bare in H. destruct H as (o & -> & Hq).
    destruct rest as [|[] ?]; try exact I. cbn in *. lia.
  Qed.

  Lemma prints_head q e ts k : Prints q e ts k -> exists t r, ts = t :: r /\ starts_expr t.
  Proof.
    induction 1 as [q a|q e ts k _ _|q e ts k _ _|q e ts k _ _|q fn args tss _|q o l r tl tr kl kr _ _ IHl _ _];
      try (eexists _, _; split; [reflexivity|split; discriminate]).
    destruct IHl as (t & r0 & -> & Ht). eexists _, _; split; [reflexivity|exact Ht].
  Qed.

  Hypothesis WF : wf_table.

  (* Fuel bounds the nesting of the calls, not their number.  Two units per token: the first token of
     an operand is read by a call of parse_expr and, below it, one of parse_primary; an operator by a
     turn of parse_loop and the parse_expr of its right operand - each at most two calls below the
     point where the token before was read.  An argument list needs one call more, the parse_args that
     meets ')' (+ 1); the first argument has no comma whose two units pay for its own parse_args (+ 2). *)
  Theorem prints_parse_fuel :
    (forall q e ts k, Prints q e ts k ->
       forall p rest res f, p <= q -> follow_ok k rest ->
         PL f p e rest = Some res -> PE (2 * length ts + f) p (ts ++ rest) = Some res) /\
    (forall es tss, PrintsArgs es tss ->
       forall rest, PA (2 * length tss + 2) true (tss ++ TRP :: rest) = Some (es, rest)) /\
    (forall es tss, PrintsMore es tss ->
       forall rest, PA (2 * length tss + 1) false (tss ++ TRP :: rest) = Some (es, rest)).
  Proof.
    destruct WF as (Hr' & Hn & Ht).
    assert (Hr : forall o, lvl o < rprec o) by (intros o; rewrite Hr'; lia).
    (* an operand in a closed position: nothing that follows it continues its loop *)
    assert (closed : forall q e ts k rest, Prints q e ts k ->
              (forall p rest res f, p <= q -> follow_ok k rest -> PL f p e rest = Some res ->
                 PE (2 * length ts + f) p (ts ++ rest) = Some res) ->
              stops q rest -> forall F, 2 * length ts < F -> PE F q (ts ++ rest) = Some (e, rest)).
    { intros q e ts k rest HP IH Hs F HF. apply (PE_mono (2 * length ts + 1)); [lia|].
      apply IH; [lia|exact (stops_follow _ _ _ _ _ HP Hs)|apply PL_stop, Hs]. }
    apply Prints_all.
    - (* atom *) intros q a p rest res f _ _ HL. apply (PL_mono _ (S f)) in HL; [exact HL|lia].
    - (* parentheses *) intros q e ts k HP IH p rest res f _ _ HL.
      cbn [app length]. rewrite <- app_assoc, app_length. cbn [app length].
      apply (PE_mono (S (S (2 * length ts + 1 + f)))); [lia|].
      rewrite PE_S. cbn [parse_primary]; fold PE PA.
      rewrite (closed 0 e ts k (TRP :: rest) HP IH I); [|lia].
      cbv beta iota. apply (PL_mono f); [lia|exact HL].
    - (* unary minus *) intros q e ts k HP IH p rest res f _ _ HL. cbn [app length].
      assert (1 <= f) by (destruct f; [discriminate|lia]).
      apply (PE_mono (S (S (2 * length ts + f)))); [lia|].
      rewrite PE_S. cbn [parse_primary]; fold PE PA.
      rewrite (closed negp e ts k rest HP IH); [cbv beta iota; apply (PL_mono f); [lia|exact HL]| |lia].
      destruct rest as [|[] ?]; cbn; auto.
    - (* not *) intros q e ts k HP IH p rest res f _ _ HL. cbn [app length].
      assert (1 <= f) by (destruct f; [discriminate|lia]).
      apply (PE_mono (S (S (2 * length ts + f)))); [lia|].
      rewrite PE_S. cbn [parse_primary]; fold PE PA.
      rewrite (closed notp e ts k rest HP IH); [cbv beta iota; apply (PL_mono f); [lia|exact HL]| |lia].
      destruct rest as [|[] ?]; cbn; auto.
    - (* call *) intros q fn args tss _ IH p rest res f _ _ HL.
      cbn [app length]. rewrite <- app_assoc, app_length. cbn [app length].
      apply (PE_mono (S (S (2 * length tss + 2 + f)))); [lia|].
      rewrite PE_S. cbn [parse_primary]; fold PE PA.
      rewrite (PA_mono _ _ _ _ _ (Nat.le_add_r _ f) (IH rest)). cbv beta iota. apply (PL_mono f); [lia|exact HL].
    - (* binary operation: the left operand, then one turn of the loop *)
      intros q o l r tl tr kl kr Hq HPl IHl HPr IHr p rest res f Hp Hf HL.
      rewrite <- app_assoc, app_length. cbn [app length].
      apply (PE_mono (2 * length tl + S (2 * length tr + 1 + f))); [lia|].
      apply IHl; [lia| |].
      + destruct kl as [kl|]; [|exact I]. cbn. apply prints_bare in HPl. destruct HPl as (o' & -> & Hle). exact Hle.
      + cbn [parse_loop]; fold PE PP PL PA. destruct (Nat.leb_spec p (lvl o)); [|lia].
        rewrite (closed (rprec o) r tr kr rest HPr IHr); [cbv beta iota; apply (PL_mono f); [lia|exact HL]| |lia].
        destruct rest as [|[] ?]; cbn; auto. cbn in Hf. specialize (Hr o). lia.
    - (* no arguments *) reflexivity.
    - (* first argument *) intros e ts k es tss HP IH HM IHm rest.
      rewrite <- app_assoc, app_length.
      apply (PA_mono (S (2 * length ts + (2 * length tss + 1)))); [lia|].
      assert (X : PE (2 * length ts + (2 * length tss + 1)) 0 (ts ++ tss ++ TRP :: rest) = Some (e, tss ++ TRP :: rest))
        by (apply (closed 0 e ts k _ HP IH); [|lia]; inversion HM; exact I).
      destruct (prints_head _ _ _ _ HP) as (t & r0 & -> & Ht1 & Ht2).
      cbn [app parse_args] in *; fold PE PA.
      destruct t; try congruence; rewrite X, (PA_mono _ _ _ _ _ (Nat.le_add_l _ _) (IHm rest)); reflexivity.
    - (* no further argument *) reflexivity.
    - (* further argument *) intros e ts k es tss HP IH HM IHm rest.
      cbn [app length]. rewrite <- app_assoc, app_length.
      apply (PA_mono (S (2 * length ts + (2 * length tss + 1)))); [lia|].
      cbn [parse_args]; fold PE PP PL PA.
      rewrite (closed 0 e ts k _ HP IH); [|inversion HM; exact I|lia].
      rewrite (PA_mono _ _ _ _ _ (Nat.le_add_l _ _) (IHm rest)). reflexivity.
  Qed.

  Lemma prints_parse_exact e ts k : Prints 0 e ts k -> PE (2 * length ts + 1) 0 ts = Some (e, []).
  Proof.
    intros H. rewrite <- (app_nil_r ts) at 2.
    apply (proj1 prints_parse_fuel 0 e ts k H); [lia|destruct k; exact I|reflexivity].
  Qed.

  Theorem prints_parse_all :
    (forall q e ts k, Prints q e ts k ->
       forall p rest res, p <= q -> follow_ok k rest ->
         ev (fun f => PL f p e rest) res -> ev (fun f => PE f p (ts ++ rest)) res) /\
    (forall es tss, PrintsArgs es tss ->
       forall rest, ev (fun f => PA f true (tss ++ TRP :: rest)) (es, rest)) /\
    (forall es tss, PrintsMore es tss ->
       forall rest, ev (fun f => PA f false (tss ++ TRP :: rest)) (es, rest)).
  Proof.
    destruct prints_parse_fuel as (HE & HA & HM). repeat split.
    - intros q e ts k H p rest res Hp Hf [n HL]. exists (2 * length ts + n). intros f Hle.
      apply (PE_mono (2 * length ts + n)); [exact Hle|]. apply (HE q e ts k H); [exact Hp|exact Hf|apply HL, le_n].
    - intros es tss H rest. eexists. intros f Hle. exact (PA_mono _ _ _ _ _ Hle (HA es tss H rest)).
    - intros es tss H rest. eexists. intros f Hle. exact (PA_mono _ _ _ _ _ Hle (HM es tss H rest)).
  Qed.

  Theorem prints_parse e ts k :
    Prints 0 e ts k -> ev (fun f => PE f 0 ts) (e, []).
  Proof. intros H. exists (2 * length ts + 1). intros f Hf. exact (PE_mono _ _ _ _ _ Hf (prints_parse_exact e ts k H)). Qed.

  Definition paren (ts : list tok) : list tok := TLP :: ts ++ [TRP].

  Fixpoint print_min (q : nat) (e : expr) : list tok :=
    match e with
    | EVal v => [TAtom (AVal v)]
    | EVar x => [TAtom (AVar x)]
    | ENull => [TAtom ANull]
    | ECall fn args =>
        TFunc fn :: TLP ::
          (match args with
           | [] => []
           | a :: more => print_min 0 a ++ flat_map (fun x => TComma :: print_min 0 x) more
           end) ++ [TRP]
    | ENeg x => TOp OSub :: print_min negp x
    | ENot x => TNot :: print_min notp x
    | EBin o l r =>
        let body := print_min (lvl o) l ++ TOp o :: print_min (rprec o) r in
        if q <=? lvl o then body else paren body
    end.

  Fixpoint print_full (e : expr) : list tok :=
    match e with
    | EVal v => [TAtom (AVal v)]
    | EVar x => [TAtom (AVar x)]
    | ENull => [TAtom ANull]
    | ECall fn args =>
        TFunc fn :: TLP ::
          (match args with
           | [] => []
           | a :: more => paren (print_full a) ++ flat_map (fun x => TComma :: paren (print_full x)) more
           end) ++ [TRP]
    | ENeg x => TOp OSub :: paren (print_full x)
    | ENot x => TNot :: paren (print_full x)
    | EBin o l r => paren (print_full l) ++ TOp o :: paren (print_full r)
    end.

  (* argument lists are written alike by both: the first argument, then a comma before each further one *)
  Lemma prints_args_flat (pr : expr -> list tok) args :
    Forall (fun x => exists k, Prints 0 x (pr x) k) args ->
    PrintsArgs args (match args with [] => [] | a :: more => pr a ++ flat_map (fun x => TComma :: pr x) more end).
  Proof.
    destruct 1 as [|a more [k Ha] Hm]; [constructor|]. econstructor; [exact Ha|].
    induction Hm as [|x more [kx Hx] _ IH]; [constructor|]. cbn [flat_map app]. econstructor; eassumption.
  Qed.

  Lemma print_min_prints e : forall q, exists k, Prints q e (print_min q e) k.
  Proof.
    induction e as [v|x| |fn args IH|e IH|e IH|o l r IHl IHr] using expr_ind'; intros q.
    - eexists. apply (P_atom q (AVal v)).
    - eexists. apply (P_atom q (AVar x)).
    - eexists. apply (P_atom q ANull).
    - eexists. cbn [print_min]. apply P_call, (prints_args_flat (print_min 0)).
      eapply Forall_impl; [|exact IH]. intros x Hx. apply Hx.
    - destruct (IH negp) as [k Hk]. eexists. cbn [print_min]. eapply P_neg; exact Hk.
    - destruct (IH notp) as [k Hk]. eexists. cbn [print_min]. eapply P_not; exact Hk.
    - destruct (IHl (lvl o)) as [kl Hl]. destruct (IHr (rprec o)) as [kr Hr]. cbn [print_min].
      destruct (Nat.leb_spec q (lvl o)) as [Hq|Hq].
      + eexists. eapply P_bin; eassumption.
      + eexists. unfold paren. eapply P_paren. eapply P_bin; [apply Nat.le_0_l|eassumption|eassumption].
  Qed.

  Lemma print_full_prints e : forall q, exists k, Prints q (e) (paren (print_full e)) k.
  Proof.
    induction e as [v|x| |fn args IH|e IH|e IH|o l r IHl IHr] using expr_ind'; intros q;
      eexists; unfold paren at 1; eapply P_paren.
    - apply (P_atom 0 (AVal v)).
    - apply (P_atom 0 (AVar x)).
    - apply (P_atom 0 ANull).
    - cbn [print_full]. apply P_call, (prints_args_flat (fun x => paren (print_full x))).
      eapply Forall_impl; [|exact IH]. intros x Hx. apply Hx.
    - destruct (IH negp) as [k Hk]. cbn [print_full]. eapply P_neg; exact Hk.
    - destruct (IH notp) as [k Hk]. cbn [print_full]. eapply P_not; exact Hk.
    - destruct (IHl (lvl o)) as [kl Hl]. destruct (IHr (rprec o)) as [kr Hr]. cbn [print_full].
      eapply P_bin; [apply Nat.le_0_l|eassumption|eassumption].
  Qed.

  Theorem parse_print_min e : ev (fun f => PE f 0 (print_min 0 e)) (e, []).
  Proof. destruct (print_min_prints e 0) as [k H]. eapply prints_parse; exact H. Qed.

  Theorem parse_print_full e : ev (fun f => PE f 0 (paren (print_full e))) (e, []).
  Proof. destruct (print_full_prints e 0) as [k H]. eapply prints_parse; exact H. Qed.

  (* redundant parentheses never matter: any two admissible ways of writing the same tree parse alike,
     and two trees with a common admissible written form are the same tree *)
  Corollary written_form_determines_tree e1 e2 ts k1 k2 :
    Prints 0 e1 ts k1 -> Prints 0 e2 ts k2 -> e1 = e2.
  Proof.
    intros H1 H2. pose proof (prints_parse_exact _ _ _ H1) as E1.
    rewrite (prints_parse_exact _ _ _ H2) in E1. congruence.
  Qed.

  (* a op1 b op2 c : the tighter operator groups first; otherwise (equal levels included) to the left *)
  Theorem group_right_when_tighter a b c o1 o2 :
    lvl o1 < lvl o2 ->
    ev (fun f => PE f 0 [TAtom a; TOp o1; TAtom b; TOp o2; TAtom c])
       (EBin o1 (expr_of_atom a) (EBin o2 (expr_of_atom b) (expr_of_atom c)), []).
  Proof.
    intros H. destruct WF as (Hr & _).
    eapply (prints_parse _ ([TAtom a] ++ TOp o1 :: ([TAtom b] ++ TOp o2 :: [TAtom c]))).
    eapply P_bin; [apply Nat.le_0_l|apply P_atom|].
    eapply P_bin; [rewrite Hr; lia|apply P_atom|apply P_atom].
  Qed.

  Theorem group_left_otherwise a b c o1 o2 :
    lvl o2 <= lvl o1 ->
    ev (fun f => PE f 0 [TAtom a; TOp o1; TAtom b; TOp o2; TAtom c])
       (EBin o2 (EBin o1 (expr_of_atom a) (expr_of_atom b)) (expr_of_atom c), []).
  Proof.
    intros H.
    eapply (prints_parse _ (([TAtom a] ++ TOp o1 :: [TAtom b]) ++ TOp o2 :: [TAtom c])).
    eapply P_bin; [apply Nat.le_0_l| |apply P_atom].
    eapply P_bin; [exact H|apply P_atom|apply P_atom].
  Qed.

  (* a prefix operator takes only the primary that follows it *)
  Theorem neg_binds_tightest a b o :
    ev (fun f => PE f 0 [TOp OSub; TAtom a; TOp o; TAtom b]) (EBin o (ENeg (expr_of_atom a)) (expr_of_atom b), []).
  Proof.
    eapply (prints_parse _ ((TOp OSub :: [TAtom a]) ++ TOp o :: [TAtom b])).
    eapply P_bin; [apply Nat.le_0_l| |apply P_atom]. eapply P_neg. apply P_atom.
  Qed.

  Theorem not_binds_tightest a b o :
    ev (fun f => PE f 0 [TNot; TAtom a; TOp o; TAtom b]) (EBin o (ENot (expr_of_atom a)) (expr_of_atom b), []).
  Proof.
    eapply (prints_parse _ ((TNot :: [TAtom a]) ++ TOp o :: [TAtom b])).
    eapply P_bin; [apply Nat.le_0_l| |apply P_atom]. eapply P_not. apply P_atom.
  Qed.

  (* parentheses override both rules *)
  Theorem parens_override_left a b c o1 o2 :
    ev (fun f => PE f 0 [TLP; TAtom a; TOp o1; TAtom b; TRP; TOp o2; TAtom c])
       (EBin o2 (EBin o1 (expr_of_atom a) (expr_of_atom b)) (expr_of_atom c), []).
  Proof.
    eapply (prints_parse _ ((TLP :: ([TAtom a] ++ TOp o1 :: [TAtom b]) ++ [TRP]) ++ TOp o2 :: [TAtom c])).
    eapply P_bin; [apply Nat.le_0_l| |apply P_atom].
    eapply P_paren. eapply P_bin; [apply Nat.le_0_l|apply P_atom|apply P_atom].
  Qed.

  Theorem parens_override_right a b c o1 o2 :
    ev (fun f => PE f 0 [TAtom a; TOp o1; TLP; TAtom b; TOp o2; TAtom c; TRP])
       (EBin o1 (expr_of_atom a) (EBin o2 (expr_of_atom b) (expr_of_atom c)), []).
  Proof.
    eapply (prints_parse _ ([TAtom a] ++ TOp o1 :: (TLP :: ([TAtom b] ++ TOp o2 :: [TAtom c]) ++ [TRP]))).
    eapply P_bin; [apply Nat.le_0_l|apply P_atom|].
    eapply P_paren. eapply P_bin; [apply Nat.le_0_l|apply P_atom|apply P_atom].
  Qed.

End Proofs.

(* the table extracted from the Go source *)
From YS Require Import Generated.ExprTable.

Lemma generated_table_wf : wf_table level right_prec neg_operand_prec not_operand_prec.
Proof. repeat split; intros o; destruct o; vm_compute; repeat constructor. Qed.

(* the order the property states: unary minus and not, then * / %, then + -, then < <= > >=, then == !=,
   then and / or / xor *)
Lemma generated_table_order :
  level OAnd = level OOr /\ level OOr = level OXor /\
  level OXor < level OEq /\ level OEq = level ONe /\
  level ONe < level OLe /\ level OLe = level OGe /\ level OGe = level OLt /\ level OLt = level OGt /\
  level OGt < level OAdd /\ level OAdd = level OSub /\
  level OSub < level OMul /\ level OMul = level ODiv /\ level ODiv = level OMod /\
  level OMod < not_operand_prec /\ level OMod < neg_operand_prec.
Proof. vm_compute. repeat split; repeat constructor. Qed.

Definition eventually {A} := @ev A.
