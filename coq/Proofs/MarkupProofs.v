(* Markup parser: the fuel of every loop is sufficient (parsing is total: None is always a genuine
   error value), returned attribute ranges lie inside the returned text (in characters),
   TextForAttribute never panics on them, the result does not depend on the parser's previous
   state.  Then what the theorems on markup meaning (C13) rest on: the main loop without fuel
   ([run], one step lemma per kind of input) and parse_markup phase by phase after the main loop. *)
From Coq Require Import List ZArith Bool Lia.
From YS Require Import Base.Sexp Num.F64 Yarn.Value Markup.LineParser.
Import ListNotations.

Local Notation len r := (length (rest r)).

(* No function of the parser returns a reader longer than the one it was given, and those that consume
   a rune return a shorter one: so every turn of parse_props and of main_loop shortens the input, and
   fuel above its length is never used up (parse_props_fuel, main_loop_fuel). *)
Lemma consume_ws_list_len l : forall p, len (consume_ws_list l p) <= length l.
Proof.
  induction l as [|c t IH]; intros p; cbn [consume_ws_list]; [cbn; lia|].
  destruct (is_space c); [specialize (IH (p + 1)%Z); cbn [length]; lia|cbn; lia].
Qed.

Lemma consume_ws_len r : len (consume_ws r) <= len r.
Proof. unfold consume_ws. apply consume_ws_list_len. Qed.

Lemma take_while_len ok l : forall p acc, len (snd (take_while ok l p acc)) <= length l.
Proof.
  induction l as [|c t IH]; intros p acc; cbn [take_while]; [cbn; lia|].
  destruct (ok c); [specialize (IH (p + 1)%Z (c :: acc)); cbn [length]; lia|cbn; lia].
Qed.

Lemma parse_rune_len r c r' : parse_rune r c = Some r' -> len r' < len r.
Proof.
  unfold parse_rune. pose proof (consume_ws_len r) as H.
  destruct (rest (consume_ws r)) as [|x t] eqn:E; [discriminate|].
  destruct (N.eqb x c); [|discriminate]. intros K. inversion K; subst. cbn [rest].
  cbn [length] in H. lia.
Qed.

Lemma parse_id_len r s r' : parse_id r = Some (s, r') -> len r' < len r.
Proof.
  unfold parse_id. pose proof (consume_ws_len r) as H.
  destruct (rest (consume_ws r)) as [|c t] eqn:E; [discriminate|].
  destruct (is_id_char c); [|discriminate]. intros K.
  pose proof (take_while_len is_id_char t (sp (consume_ws r) + 1)%Z [c]) as H2.
  inversion K as [K']. rewrite K' in H2. cbn [snd] in H2. cbn [length] in H. lia.
Qed.

Lemma parse_digits_len r ds r' : parse_digits r = (ds, r') -> len r' <= len r.
Proof.
  unfold parse_digits. intros E. pose proof (consume_ws_len r) as H.
  pose proof (take_while_len is_udigit (rest (consume_ws r)) (sp (consume_ws r)) []) as H2.
  rewrite E in H2. cbn [snd] in H2. lia.
Qed.

Lemma parse_string_body_len_aux : forall n l, length l <= n ->
  forall p acc s r', parse_string_body l p acc = Some (s, r') -> len r' < length l.
Proof.
  induction n as [|n IH]; intros l Hn p acc s r' H.
  - destruct l; [discriminate|cbn in Hn; lia].
  - destruct l as [|c t]; [discriminate|]. cbn [parse_string_body] in H. cbn [length] in Hn.
    destruct (N.eqb c 34).
    + inversion H; subst. cbn. lia.
    + destruct (N.eqb c 92).
      * destruct t as [|e t']; [discriminate|]. cbn [length] in Hn.
        apply IH in H; [cbn [length]; lia|lia].
      * apply IH in H; [cbn [length]; lia|lia].
Qed.

Lemma parse_string_body_len l p acc s r' : parse_string_body l p acc = Some (s, r') -> len r' < length l.
Proof. apply (parse_string_body_len_aux (length l)). lia. Qed.

Lemma parse_string_len r s r' : parse_string r = Some (s, r') -> len r' < len r.
Proof.
  unfold parse_string. pose proof (consume_ws_len r) as H.
  destruct (rest (consume_ws r)) as [|c t] eqn:E; [discriminate|].
  destruct (N.eqb c 34); [|discriminate]. intros K. apply parse_string_body_len in K.
  cbn [length] in H. lia.
Qed.

Lemma expect_peek_len r c b r' : expect_peek r c = (b, r') -> len r' <= len r.
Proof. unfold expect_peek. intros E. inversion E. apply consume_ws_len. Qed.

Lemma parse_value_len r v r' : parse_value r = Some (v, r') -> len r' <= len r.
Proof.
  unfold parse_value. pose proof (consume_ws_len r) as H0.
  destruct (is_udigit (peek (consume_ws r))).
  - destruct (parse_digits (consume_ws r)) as [ds r1] eqn:H1. apply parse_digits_len in H1.
    destruct (expect_peek r1 46%N) as [dot r2] eqn:H2. apply expect_peek_len in H2. destruct dot.
    + destruct (parse_rune r2 46%N) as [r3|] eqn:E3; [|discriminate]. apply parse_rune_len in E3.
      destruct (parse_digits r3) as [fs r4] eqn:H4. apply parse_digits_len in H4.
      destruct fs as [|f0 fs']; [discriminate|].
      destruct (all_ascii_digits ds && all_ascii_digits (f0 :: fs')); [|discriminate].
      destruct (Num.Decimal.parse_float _); [|discriminate]. intros K; inversion K; subst. lia.
    + destruct (all_ascii_digits ds); [|discriminate].
      destruct (digits_val 0 ds) as [i|]; [|discriminate].
      destruct (i <? two63)%Z; [|discriminate]. intros K; inversion K; subst. lia.
  - destruct (expect_peek (consume_ws r) 34%N) as [q r1] eqn:H1. apply expect_peek_len in H1. destruct q.
    + destruct (parse_string r1) as [[s r2]|] eqn:E; [|discriminate]. apply parse_string_len in E.
      intros K; inversion K; subst. lia.
    + destruct (parse_id r1) as [[w r2]|] eqn:E; [|discriminate]. apply parse_id_len in E.
      destruct (str_eqb _ _); [intros K; inversion K; subst; lia|].
      destruct (str_eqb _ _); intros K; inversion K; subst; lia.
Qed.

Lemma parse_props_fuel : forall f1 f2 r name props pos src, len r < f1 -> len r < f2 ->
  parse_props f1 r name props pos src = parse_props f2 r name props pos src.
Proof.
  induction f1 as [|f1 IH]; intros f2 r name props pos src H1 H2; [lia|].
  destruct f2 as [|f2]; [lia|]. cbn [parse_props].
  pose proof (consume_ws_len r) as Hw.
  destruct (N.eqb (peek (consume_ws r)) 93); [reflexivity|].
  destruct (N.eqb (peek (consume_ws r)) 47); [reflexivity|].
  destruct (parse_id (consume_ws r)) as [[pn r2]|] eqn:E; [|reflexivity]. apply parse_id_len in E.
  destruct (parse_rune r2 61%N) as [r3|] eqn:E3; [|reflexivity]. apply parse_rune_len in E3.
  destruct (parse_value r3) as [[pv r4]|] eqn:E4; [|reflexivity]. apply parse_value_len in E4.
  apply IH; lia.
Qed.

Lemma parse_props_len : forall f r name props pos src m r', parse_props f r name props pos src = Some (m, r') ->
  len r' <= len r.
Proof.
  induction f as [|f IH]; intros r name props pos src m r' H; [discriminate|].
  cbn [parse_props] in H. pose proof (consume_ws_len r) as Hw.
  destruct (N.eqb (peek (consume_ws r)) 93).
  - destruct (parse_rune (consume_ws r) 93%N) as [r2|] eqn:E; [|discriminate]. apply parse_rune_len in E.
    inversion H; subst. lia.
  - destruct (N.eqb (peek (consume_ws r)) 47).
    + destruct (parse_rune (consume_ws r) 47%N) as [r2|] eqn:E; [|discriminate]. apply parse_rune_len in E.
      destruct (parse_rune r2 93%N) as [r3|] eqn:E3; [|discriminate]. apply parse_rune_len in E3.
      inversion H; subst. lia.
    + destruct (parse_id (consume_ws r)) as [[pn r2]|] eqn:E; [|discriminate]. apply parse_id_len in E.
      destruct (parse_rune r2 61%N) as [r3|] eqn:E3; [|discriminate]. apply parse_rune_len in E3.
      destruct (parse_value r3) as [[pv r4]|] eqn:E4; [|discriminate]. apply parse_value_len in E4.
      apply IH in H. lia.
Qed.

Lemma parse_marker_len r pos m r' : parse_marker r pos = Some (m, r') -> len r' <= len r.
Proof.
  unfold parse_marker.
  set (r0 := {| rest := rest r; sp := (sp r + 1)%Z |}).
  assert (H0 : len r0 = len r) by reflexivity.
  destruct (expect_peek r0 47%N) as [sl r1] eqn:H1. apply expect_peek_len in H1. destruct sl.
  - destruct (parse_rune r1 47%N) as [r2|] eqn:E2; [|discriminate]. apply parse_rune_len in E2.
    destruct (expect_peek r2 93%N) as [cl r3] eqn:H3. apply expect_peek_len in H3. destruct cl.
    + destruct (parse_rune r3 93%N) as [r4|] eqn:E4; [|discriminate]. apply parse_rune_len in E4.
      intros K; inversion K; subst. lia.
    + destruct (parse_id r3) as [[nm r4]|] eqn:E4; [|discriminate]. apply parse_id_len in E4.
      destruct (parse_rune r4 93%N) as [r5|] eqn:E5; [|discriminate]. apply parse_rune_len in E5.
      intros K; inversion K; subst. lia.
  - destruct (parse_id r1) as [[nm r2]|] eqn:E2; [|discriminate]. apply parse_id_len in E2.
    destruct (expect_peek r2 61%N) as [eq r3] eqn:H3. apply expect_peek_len in H3. destruct eq.
    + destruct (parse_rune r3 61%N) as [r4|] eqn:E4; [|discriminate]. apply parse_rune_len in E4.
      destruct (parse_value r4) as [[v r5]|] eqn:E5; [|discriminate]. apply parse_value_len in E5.
      intros K. apply parse_props_len in K. lia.
    + intros K. apply parse_props_len in K. lia.
Qed.

Lemma split_at_close_len name l : forall acc raw after, split_at_close name l acc = Some (raw, after) ->
  length after <= length l.
Proof.
  induction l as [|c t IH]; intros acc raw after H; cbn [split_at_close] in H.
  - destruct (close_tag_here name []); [inversion H; subst; cbn; lia|discriminate].
  - destruct (close_tag_here name (c :: t)); [inversion H; subst; lia|].
    apply IH in H. cbn [length]. lia.
Qed.

Lemma process_replacement_len m proc r t r' : process_replacement m proc r = Some (t, r') -> len r' <= len r.
Proof.
  unfold process_replacement. destruct (mtype m).
  - destruct (split_at_close (mname m) (rest r) []) as [[raw after]|] eqn:E; [|discriminate].
    apply split_at_close_len in E. destruct (proc _); [|discriminate]. intros K; inversion K; subst. cbn. lia.
  - intros K; inversion K; subst. lia.
  - destruct (proc m); [|discriminate]. intros K; inversion K; subst. lia.
  - intros K; inversion K; subst. lia.
Qed.

Lemma main_loop_fuel : forall f1 f2 r bld blen ms last, len r < f1 -> len r < f2 ->
  main_loop f1 r bld blen ms last = main_loop f2 r bld blen ms last.
Proof.
  induction f1 as [|f1 IH]; intros f2 r bld blen ms last H1 H2; [lia|].
  destruct f2 as [|f2]; [lia|]. cbn [main_loop].
  destruct (rest r) as [|c t] eqn:Er; [reflexivity|]. cbn [length] in H1, H2.
  destruct (N.eqb c 92 && match t with x :: _ => N.eqb x 91 || N.eqb x 93 | [] => false end).
  - destruct t as [|x t']; [reflexivity|]. apply IH; cbn [rest length] in *; lia.
  - destruct (N.eqb c 91).
    + destruct (parse_marker {| rest := t; sp := sp r |} blen) as [[m r2]|] eqn:Em; [|reflexivity].
      apply parse_marker_len in Em. cbn [rest] in Em.
      destruct (processor_of (mname m)) as [proc|].
      * destruct (process_replacement m proc r2) as [[txt r3]|] eqn:Ep; [|reflexivity].
        apply process_replacement_len in Ep.
        destruct (if (blen =? 0)%Z || is_space last then _ else _) as [tr|]; [|reflexivity].
        apply IH; destruct (tr && is_space (peek r3)); cbn [rest];
          destruct (rest r3); cbn [tl length] in *; lia.
      * destruct (if (blen =? 0)%Z || is_space last then _ else _) as [tr|]; [|reflexivity].
        apply IH; destruct (tr && is_space (peek r2)); cbn [rest];
          destruct (rest r2); cbn [tl length] in *; lia.
    + apply IH; cbn [rest]; lia.
Qed.

Theorem parse_markup_fuel_irrelevant input extra :
  main_loop (S (length input) + extra) {| rest := input; sp := 0 |} [] 0 [] 0%N =
  main_loop (S (length input)) {| rest := input; sp := 0 |} [] 0 [] 0%N.
Proof. apply main_loop_fuel; cbn [rest]; lia. Qed.

Definition range_ok (text : str) (a : attribute) : Prop :=
  (0 <= apos a /\ 0 <= alen a /\ apos a + alen a <= Z.of_nat (length text))%Z.

Theorem attribute_ranges_inside input text attrs : parse_markup input = Some (text, attrs) ->
  Forall (range_ok text) attrs.
Proof.
  unfold parse_markup.
  destruct (main_loop _ _ _ _ _ _) as [[t ms]|]; [|discriminate].
  destruct (build_attrs ms [] []) as [a0|]; [|discriminate].
  intros H. inversion H; subst. clear H.
  apply Forall_forall. intros a Ha. apply in_map_iff in Ha. destruct Ha as (b & Hb & _). subst a.
  unfold range_ok, clampz. cbn [apos alen]. lia.
Qed.

Lemma text_for_attribute_range text a : range_ok text a ->
  text_for_attribute text a = Some (firstn (Z.to_nat (alen a)) (skipn (Z.to_nat (apos a)) text)).
Proof.
  intros (H1 & H2 & H3). unfold text_for_attribute. destruct (alen a =? 0)%Z eqn:E0.
  - (* length 0 is answered before the range is looked at, and firstn 0 is [] too *)
    apply Z.eqb_eq in E0. rewrite E0. reflexivity.
  - replace (_ || _ || _)%Z with false; [reflexivity|].
    symmetry. rewrite !orb_false_iff, !Z.ltb_ge. lia.
Qed.

Theorem text_for_attribute_safe input text attrs : parse_markup input = Some (text, attrs) ->
  forall a, In a attrs -> text_for_attribute text a <> None.
Proof.
  intros H a Ha. pose proof (attribute_ranges_inside _ _ _ H) as F. rewrite Forall_forall in F.
  rewrite (text_for_attribute_range _ _ (F a Ha)). discriminate.
Qed.

Theorem text_for_attribute_length input text attrs a x : parse_markup input = Some (text, attrs) ->
  In a attrs -> text_for_attribute text a = Some x -> Z.of_nat (length x) = alen a.
Proof.
  intros H Ha Hx. pose proof (attribute_ranges_inside _ _ _ H) as F. rewrite Forall_forall in F.
  destruct (F a Ha) as (H1 & H2 & H3). rewrite (text_for_attribute_range _ _ (F a Ha)) in Hx.
  inversion Hx; subst. rewrite firstn_length, skipn_length. lia.
Qed.

(* C14: the persistent fields of LineParser are overwritten before being read *)
Record lpstate := { lp_input : str; lp_rest : list rune; lp_sp : Z; lp_pos : Z }.

(* LineParser.ParseMarkup on a parser value in state [st] *)
Definition parse_markup_on (st : lpstate) (input : str) : lpstate * option (str * list attribute) :=
  (* ParseMarkup sets input; parseMarkup resets reader, position and sourcePosition (D17) *)
  let st1 := {| lp_input := input; lp_rest := input; lp_sp := 0; lp_pos := 0 |} in
  (st1, match main_loop (S (length (lp_rest st1))) {| rest := lp_rest st1; sp := lp_sp st1 |} [] (lp_pos st1) [] 0%N with
        | None => None
        | Some _ => parse_markup input
        end).

Theorem parse_markup_state_independent st1 st2 input :
  snd (parse_markup_on st1 input) = snd (parse_markup_on st2 input).
Proof. reflexivity. Qed.

Theorem parse_markup_on_is_pure st input : snd (parse_markup_on st input) = parse_markup input.
Proof.
  unfold parse_markup_on, parse_markup. cbn [snd lp_rest lp_sp lp_pos].
  destruct (main_loop _ _ _ _ _ _); reflexivity.
Qed.

Theorem result_after_any_history (hist : list str) st input :
  snd (parse_markup_on (fold_left (fun s h => fst (parse_markup_on s h)) hist st) input) = parse_markup input.
Proof. apply parse_markup_on_is_pure. Qed.

Local Open Scope Z_scope.

Definition plain_rune (c : N) : bool := negb (N.eqb c 91) && negb (N.eqb c 92).

Definition run (l : list rune) (p : Z) (bld : str) (blen : Z) (ms : list marker) (lst : rune) :=
  main_loop (S (length l)) {| rest := l; sp := p |} bld blen ms lst.
Arguments run : simpl never.

Lemma run_nil p bld blen ms last : run [] p bld blen ms last = Some (rev bld, ms).
Proof. reflexivity. Qed.

Lemma run_char c t p bld blen ms last : (c =? 91)%N = false ->
  (c =? 92)%N && match t with x :: _ => (x =? 91)%N || (x =? 93)%N | [] => false end = false ->
  run (c :: t) p bld blen ms last = run t (p + 1) (c :: bld) (blen + 1) ms c.
Proof.
  intros H1 H2. unfold run at 1. cbn [length]. remember (S (length t)) as f. cbn [main_loop rest sp].
  rewrite H2, H1. subst f. reflexivity.
Qed.

Lemma run_plain c t p bld blen ms last : plain_rune c = true ->
  run (c :: t) p bld blen ms last = run t (p + 1) (c :: bld) (blen + 1) ms c.
Proof.
  intros H. apply andb_true_iff in H as [H1 H2]. apply negb_true_iff in H1, H2.
  apply run_char; [exact H1|rewrite H2; reflexivity].
Qed.

Lemma run_escaped c t p bld blen ms last : c = 91%N \/ c = 93%N ->
  run (92%N :: c :: t) p bld blen ms last = run t (p + 1) (c :: bld) (blen + 1) ms last.
Proof.
  intros H. unfold run at 1. cbn [length]. remember (S (S (length t))) as f. cbn [main_loop rest sp].
  replace ((c =? 91) || (c =? 93))%N with true by (destruct H; subst; reflexivity).
  change ((92 =? 92)%N && true) with true. cbv iota. subst f.
  unfold run. apply main_loop_fuel; cbn [rest]; lia.
Qed.

(* trimWhitespaceIfAble of parseMarkup, for a marker that is not a replacement marker *)
Definition trim_rule (had_ws : bool) (m : marker) : option bool :=
  if had_ws then
    match get_prop (mprops m) (STR "trimwhitespace") with
    | Some (MBool b) => Some b
    | Some _ => None
    | None => Some (match mtype m with TSelfClosing => true | _ => false end)
    end
  else Some false.

Lemma run_marker {tl0 p bld blen ms last m rst p'} tr :
  parse_marker {| rest := tl0; sp := p |} blen = Some (m, {| rest := rst; sp := p' |}) ->
  processor_of (mname m) = None ->
  trim_rule ((blen =? 0) || is_space last) m = Some tr ->
  run (91%N :: tl0) p bld blen ms last =
  if tr && is_space (hd 0%N rst) then run (tl rst) (p' + 1) bld blen (ms ++ [m]) 91%N
  else run rst p' bld blen (ms ++ [m]) 91%N.
Proof.
  intros Hm Hproc Htr. pose proof (parse_marker_len _ _ _ _ Hm) as Hl. cbn [rest] in Hl.
  unfold run at 1. cbn [length]. remember (S (length tl0)) as f. cbn [main_loop rest sp].
  cbn [N.eqb Pos.eqb andb]. rewrite Hm, Hproc. cbv beta iota zeta.
  unfold trim_rule in Htr. cbn [negb]. rewrite Htr.
  cbn [rev app length Z.of_nat]. rewrite Z.add_0_r.
  replace (peek {| rest := rst; sp := p' |}) with (hd 0%N rst) by (destruct rst; reflexivity).
  subst f. unfold run.
  destruct (tr && is_space (hd 0%N rst)); apply main_loop_fuel; cbn [rest sp]; try lia.
  destruct rst; cbn [tl length] in *; lia.
Qed.

Lemma last_cons (c : N) : forall t d, last (c :: t) d = last t c.
Proof. induction t as [|a t IH]; intros d; [reflexivity|]. cbn [last] in *. destruct t; [reflexivity|apply (IH d)]. Qed.

Lemma run_text t : forall R p bld blen ms lst, forallb plain_rune t = true ->
  run (t ++ R) p bld blen ms lst
  = run R (p + Z.of_nat (length t)) (rev t ++ bld) (blen + Z.of_nat (length t)) ms (last t lst).
Proof.
  induction t as [|c t IH]; intros R p bld blen ms lst H.
  - cbn [app length rev last Z.of_nat]. rewrite !Z.add_0_r. reflexivity.
  - cbn [forallb] in H. apply andb_true_iff in H as [Hc Ht]. cbn [app].
    rewrite run_plain, IH, last_cons by assumption.
    cbn [rev length]. rewrite <- app_assoc. f_equal; lia.
Qed.

Lemma run_plain_end t p bld blen ms lst : forallb plain_rune t = true ->
  run t p bld blen ms lst = Some (rev bld ++ t, ms).
Proof.
  intros H. rewrite <- (app_nil_r t) at 1.
  rewrite run_text, run_nil, rev_app_distr, rev_involutive by exact H. reflexivity.
Qed.

Definition has_char (l : list attribute) : bool := existsb (fun a => str_eqb (aname a) (STR "character")) l.

(* the implicit character attribute of a text, if its regexp matches *)
Definition char_attr (T : str) : list attribute :=
  match find_colon T 0 with
  | Some (i, j) => [{| aname := STR "character"; apos := 0; alen := Z.of_nat j; asrc := 0;
                       aprops := [(STR "name", MStr (trim_space (firstn i T)))] |}]
  | None => []
  end.
Arguments char_attr : simpl never.

(* the last loop of parseMarkup: ranges follow the trimmed text *)
Definition adjust_to (T : str) (a : attribute) : attribute :=
  let at_start := Z.of_nat (length T) - Z.of_nat (length (trim_left T)) in
  let tlen := Z.of_nat (length (trim_space T)) in
  let start := clampz 0 (apos a - at_start) tlen in
  let stop := Z.max start (Z.min (apos a - at_start + alen a) tlen) in
  {| aname := aname a; apos := start; alen := stop - start; asrc := asrc a; aprops := aprops a |}.
Arguments adjust_to : simpl never.

Lemma parse_markup_phases input T ms attrs0 :
  run input 0 [] 0 [] 0%N = Some (T, ms) -> build_attrs ms [] [] = Some attrs0 ->
  parse_markup input = Some (trim_space T, map (adjust_to T)
    (sort_attrs attrs0 ++ if has_char (sort_attrs attrs0) then [] else char_attr T)).
Proof.
  unfold run, parse_markup. intros -> ->. cbv zeta. fold (has_char (sort_attrs attrs0)).
  unfold char_attr. destruct (has_char _); [|destruct (find_colon T 0) as [[i j]|]]; rewrite ?app_nil_r; reflexivity.
Qed.

Lemma parse_markup_build_error input T ms :
  run input 0 [] 0 [] 0%N = Some (T, ms) -> build_attrs ms [] [] = None -> parse_markup input = None.
Proof. unfold run, parse_markup. intros -> ->. reflexivity. Qed.

Lemma trim_left_le s : (length (trim_left s) <= length s)%nat.
Proof. induction s as [|c s IH]; cbn [trim_left length]; [lia|]. destruct (is_space c); cbn [length]; lia. Qed.

Lemma adjust_to_id T a : trim_left T = T -> trim_left (rev T) = rev T -> range_ok T a -> adjust_to T a = a.
Proof.
  intros H1 H2 (R1 & R2 & R3). unfold adjust_to, trim_space, clampz. rewrite H1, H2, rev_involutive.
  destruct a as [nm ps ln sr pr]; cbn [apos alen aname asrc aprops] in *. f_equal; lia.
Qed.

Lemma count_re_space_le t : (count_re_space t <= length t)%nat.
Proof. induction t as [|c t IH]; cbn [count_re_space length]; [lia|]. destruct (is_re_space c); lia. Qed.

Lemma find_colon_bound : forall l i a b, find_colon l i = Some (a, b) -> (b <= i + length l)%nat.
Proof.
  induction l as [|c l IH]; intros i a b H; cbn [find_colon] in H; [discriminate|].
  destruct (c =? 58)%N; [|apply IH in H; cbn [length]; lia].
  inversion H; subst. pose proof (count_re_space_le l). cbn [length]. lia.
Qed.

Lemma char_attr_range T : Forall (range_ok T) (char_attr T).
Proof.
  unfold char_attr. destruct (find_colon T 0) as [[i j]|] eqn:E; constructor; [|constructor].
  apply find_colon_bound in E. unfold range_ok. cbn [apos alen]. lia.
Qed.

Lemma find_colon_none : forall l i, forallb (fun c => negb (N.eqb c 58)) l = true -> find_colon l i = None.
Proof.
  induction l as [|c l IH]; intros i H; [reflexivity|]. cbn [forallb] in H. apply andb_true_iff in H as [H1 H2].
  cbn [find_colon]. apply negb_true_iff in H1. rewrite H1. apply IH. exact H2.
Qed.

Lemma find_colon_first : forall n t i, forallb (fun c => negb (N.eqb c 58)) n = true ->
  find_colon (n ++ 58%N :: t) i = Some ((i + length n)%nat, (S (i + length n) + count_re_space t)%nat).
Proof.
  induction n as [|c n IH]; intros t i H.
  - cbn [app find_colon length]. rewrite N.eqb_refl. f_equal. f_equal; lia.
  - cbn [forallb] in H. apply andb_true_iff in H as [H1 H2]. apply negb_true_iff in H1.
    cbn [app find_colon length]. rewrite H1. rewrite IH by exact H2. f_equal. f_equal; lia.
Qed.

Lemma char_attr_none T : forallb (fun c => negb (N.eqb c 58)) T = true -> char_attr T = [].
Proof. intros H. unfold char_attr. rewrite find_colon_none by exact H. reflexivity. Qed.

Lemma char_attr_prefix n t : forallb (fun c => negb (N.eqb c 58)) n = true ->
  char_attr (n ++ 58%N :: t) =
  [{| aname := STR "character"; apos := 0; alen := Z.of_nat (S (length n) + count_re_space t); asrc := 0;
      aprops := [(STR "name", MStr (trim_space n))] |}].
Proof.
  intros H. unfold char_attr. rewrite find_colon_first by exact H. cbn [Nat.add].
  rewrite firstn_app, firstn_all, Nat.sub_diag. cbn [firstn]. rewrite app_nil_r. reflexivity.
Qed.

Lemma In_insert a b l : In a (insert_attr b l) <-> a = b \/ In a l.
Proof.
  induction l as [|c l IH]; cbn [insert_attr In]; [intuition|].
  destruct (apos b <=? apos c)%Z; cbn [In]; [intuition|]. rewrite IH. intuition.
Qed.

Lemma In_sort a l : In a (sort_attrs l) <-> In a l.
Proof.
  induction l as [|b l IH]; cbn [sort_attrs fold_right In]; [reflexivity|].
  change (fold_right insert_attr [] l) with (sort_attrs l). rewrite In_insert, IH. intuition.
Qed.

Lemma insert_length b l : length (insert_attr b l) = S (length l).
Proof. induction l as [|c l IH]; cbn [insert_attr length]; [reflexivity|]. destruct (apos b <=? apos c)%Z; cbn [length]; congruence. Qed.

Lemma sort_length l : length (sort_attrs l) = length l.
Proof.
  induction l as [|b l IH]; [reflexivity|]. cbn [sort_attrs fold_right].
  change (fold_right insert_attr [] l) with (sort_attrs l). rewrite insert_length, IH. reflexivity.
Qed.

Lemma has_char_sort l : has_char (sort_attrs l) = has_char l.
Proof.
  unfold has_char. apply eq_true_iff_eq. rewrite !existsb_exists.
  split; intros (a & Ha & E); exists a; (split; [apply In_sort; exact Ha|exact E]).
Qed.

Lemma parse_markup_clean input T ms attrs0 :
  run input 0 [] 0 [] 0%N = Some (T, ms) -> build_attrs ms [] [] = Some attrs0 ->
  trim_left T = T -> trim_left (rev T) = rev T -> Forall (range_ok T) attrs0 ->
  parse_markup input = Some (T, sort_attrs attrs0 ++ if has_char attrs0 then [] else char_attr T).
Proof.
  intros Hr Hb H1 H2 Hin. rewrite (parse_markup_phases _ _ _ _ Hr Hb), has_char_sort.
  unfold trim_space at 1. rewrite H1, H2, rev_involutive. f_equal. f_equal.
  rewrite <- map_id. apply map_ext_in. intros a Ha. apply adjust_to_id; try assumption.
  apply in_app_or in Ha as [Ha|Ha].
  - rewrite Forall_forall in Hin. apply Hin, In_sort, Ha.
  - destruct (has_char attrs0); [contradiction|].
    pose proof (char_attr_range T) as F. rewrite Forall_forall in F. exact (F a Ha).
Qed.

Lemma plain_parse t : forallb plain_rune t = true ->
  parse_markup t = Some (trim_space t, map (adjust_to t) (char_attr t)).
Proof. intros H. exact (parse_markup_phases t t [] [] (run_plain_end t 0 [] 0 [] 0%N H) eq_refl). Qed.

(* C13: text without markup is returned as it is (trimmed) *)
Theorem plain_text_identity t : forallb plain_rune t = true ->
  forallb (fun c => negb (N.eqb c 58)) t = true ->
  parse_markup t = Some (trim_space t, []).
Proof. intros Hp Hc. rewrite (plain_parse t Hp), (char_attr_none t Hc). reflexivity. Qed.

Lemma Forall2_len {A B} (P : A -> B -> Prop) l1 l2 : Forall2 P l1 l2 -> length l1 = length l2.
Proof. induction 1; cbn [length]; congruence. Qed.

Lemma Forall2_In_l {A B} (P : A -> B -> Prop) l1 l2 a : Forall2 P l1 l2 -> In a l1 -> exists b, In b l2 /\ P a b.
Proof. induction 1; intros Hin; [contradiction|]. destruct Hin as [->|Hin]; [eexists; split; [left; reflexivity|assumption]|].
  destruct (IHForall2 Hin) as (b & Hb & Pb). exists b. split; [right; exact Hb|exact Pb]. Qed.

Lemma Forall2_In_r {A B} (P : A -> B -> Prop) l1 l2 b : Forall2 P l1 l2 -> In b l2 -> exists a, In a l1 /\ P a b.
Proof. induction 1; intros Hin; [contradiction|]. destruct Hin as [->|Hin]; [eexists; split; [left; reflexivity|assumption]|].
  destruct (IHForall2 Hin) as (a & Ha & Pa). exists a. split; [right; exact Ha|exact Pa]. Qed.

Lemma Forall2_mono {A B} (P Q : A -> B -> Prop) l1 l2 :
  (forall a b, P a b -> Q a b) -> Forall2 P l1 l2 -> Forall2 Q l1 l2.
Proof. intros H. induction 1; constructor; auto. Qed.

Lemma Forall2_map_l {A A' B} (P : A -> B -> Prop) (Q : A' -> B -> Prop) (f : A -> A') l1 l2 :
  (forall a b, P a b -> Q (f a) b) -> Forall2 P l1 l2 -> Forall2 Q (map f l1) l2.
Proof. intros H. induction 1; cbn [map]; constructor; auto. Qed.

Lemma Forall2_map_r {A B B'} (P : A -> B -> Prop) (Q : A -> B' -> Prop) (f : B -> B') l1 l2 :
  (forall a b, P a b -> Q a (f b)) -> Forall2 P l1 l2 -> Forall2 Q l1 (map f l2).
Proof. intros H. induction 1; cbn [map]; constructor; auto. Qed.

(* the shape in which the document theorems say "one attribute per closed marker" *)
Definition matches {B} (Q : attribute -> B -> Prop) (attrs : list attribute) (encl : list B) : Prop :=
  length attrs = length encl /\
  (forall e, In e encl -> exists a, In a attrs /\ Q a e) /\
  (forall a, In a attrs -> exists e, In e encl /\ Q a e).

Lemma sorted_matches {B} (R Q : attribute -> B -> Prop) l encl :
  (forall a e, R a e -> Q a e) -> Forall2 R l encl -> matches Q (sort_attrs l) encl.
Proof.
  intros HRQ F. split; [rewrite sort_length; exact (Forall2_len _ _ _ F)|]. split.
  - intros e He. destruct (Forall2_In_r _ _ _ _ F He) as (a & Ha & Hr). exists a. split; [apply In_sort; exact Ha|auto].
  - intros a Ha. apply (proj1 (In_sort _ _)) in Ha. destruct (Forall2_In_l _ _ _ _ F Ha) as (e & He & Hr). exists e. auto.
Qed.

Lemma has_char_names {B} (R : attribute -> B -> Prop) (nm : B -> str) l1 l2 :
  (forall a e, R a e -> aname a = nm e) -> Forall2 R l1 l2 ->
  has_char l1 = existsb (fun e => str_eqb (nm e) (STR "character")) l2.
Proof.
  intros HR. induction 1 as [|a e ? ? Hae]; [reflexivity|].
  cbn [has_char existsb] in *. rewrite (HR _ _ Hae). f_equal. assumption.
Qed.
