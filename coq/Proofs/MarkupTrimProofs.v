(* C13: the whitespace-trimming rule of self-closing markers.  A self-closing marker that stands at the
   start of the text or after a blank swallows ONE blank that directly follows it. *)
From Coq Require Import List ZArith Lia Bool.
From YS Require Import Base.Sexp Yarn.Value Markup.LineParser Proofs.MarkupProofs Proofs.MarkupPropsProofs.
Require YS.Proofs.MarkupCharacterProofs.
Module CP := YS.Proofs.MarkupCharacterProofs.
Import ListNotations.
Local Open Scope Z_scope.

Fixpoint lastr (t : str) (d : N) : N := match t with [] => d | c :: r => lastr r c end.
Lemma lastr_last : forall t d, lastr t d = last t d.
Proof. induction t as [|c t IH]; intros d; [reflexivity|]. rewrite last_cons. apply IH. Qed.

(* one self-closing marker between two plain texts, whatever the trimming rule decides ([tr]):
   if it says yes and a blank follows, that one blank is swallowed.  The rule is asked about the marker
   the parser returns, whose source position [src] (which trim_rule ignores) is known only once the
   marker has been parsed: hence for all src *)
Lemma self_closing_alone n ps a R tr :
  name_ok n -> Forall prop_ok ps -> str_eqb n (STR "character") = false ->
  forallb plain_rune a = true -> forallb plain_rune R = true ->
  forallb CP.no_colon a = true -> forallb CP.no_colon R = true ->
  (forall src, trim_rule ((Z.of_nat (length a) =? 0) || is_space (lastr a 0%N))
     {| mname := n; mpos := Z.of_nat (length a); msrc := src; mprops := pvalues ps; mtype := TSelfClosing |} = Some tr) ->
  let b := if tr && is_space (hd 0%N R) then tl R else R in
  no_edge_space (a ++ b) ->
  exists src, parse_markup (a ++ 91%N :: w_self n ps ++ R) =
    Some (a ++ b, [{| aname := n; apos := Z.of_nat (length a); alen := 0; asrc := src;
                      aprops := props_map (pvalues ps) |}]).
Proof.
  intros Hn Hps Hnc Ha HR Hca HcR Htr b (Ht1 & Ht2).
  destruct (self_form_written n ps Hn Hps R (0 + Z.of_nat (length a)) (0 + Z.of_nat (length a))) as (src & p2 & Em).
  exists src. rewrite Z.add_0_l in Em.
  set (m := {| mname := n; mpos := Z.of_nat (length a); msrc := src; mprops := pvalues ps; mtype := TSelfClosing |}) in *.
  assert (Hb : forallb plain_rune b = true /\ forallb CP.no_colon b = true).
  { subst b. destruct (tr && is_space (hd 0%N R)); [|auto]. destruct R; [auto|]. cbn [tl forallb] in *.
    apply andb_true_iff in HR as [_ HR], HcR as [_ HcR]. auto. }
  assert (E : run (a ++ 91%N :: w_self n ps ++ R) 0 [] 0 [] 0%N = Some (a ++ b, [m])).
  { rewrite run_text by exact Ha. rewrite !Z.add_0_l, app_nil_r, <- lastr_last.
    rewrite (run_marker tr Em (proj2 (proj2 Hn)) (Htr src)). fold b.
    assert (Hrun : forall p', run b p' (rev a) (Z.of_nat (length a)) ([] ++ [m]) 91%N = Some (a ++ b, [m])).
    { intros p'. rewrite run_plain_end, rev_involutive by apply Hb. reflexivity. }
    subst b. destruct (tr && is_space (hd 0%N R)); apply Hrun. }
  rewrite (parse_markup_clean _ _ _ _ E eq_refl Ht1 Ht2).
  - unfold has_char. cbn [app existsb aname attr_of m mname orb sort_attrs fold_right insert_attr].
    rewrite Hnc, char_attr_none; [reflexivity|].
    change (forallb CP.no_colon (a ++ b) = true). rewrite forallb_app, Hca. apply Hb.
  - repeat constructor; cbn [attr_of apos alen mpos m]; rewrite ?app_length; lia.
Qed.

Theorem self_closing_trims_one_blank n ps a ws b :
  name_ok n -> Forall prop_ok ps -> get_prop (pvalues ps) (STR "trimwhitespace") = None ->
  str_eqb n (STR "character") = false ->
  forallb plain_rune a = true -> forallb plain_rune b = true ->
  forallb CP.no_colon a = true -> forallb CP.no_colon b = true ->
  is_space ws = true ->
  (Z.of_nat (length a) =? 0) || is_space (lastr a 0%N) = true ->      (* at the start or after a blank *)
  no_edge_space (a ++ b) ->
  exists src, parse_markup (a ++ 91%N :: w_self n ps ++ ws :: b) =
    Some (a ++ b, [{| aname := n; apos := Z.of_nat (length a); alen := 0; asrc := src;
                      aprops := props_map (pvalues ps) |}]).
Proof.
  intros Hn Hps Htw Hnc Ha Hb Hca Hcb Hws Hhad Hedge.
  (* a blank is neither '[' nor a backslash nor a colon *)
  assert (Hw : plain_rune ws && CP.no_colon ws = true).
  { unfold plain_rune, CP.no_colon.
    destruct (N.eqb_spec ws 91), (N.eqb_spec ws 92), (N.eqb_spec ws 58); subst; try discriminate; reflexivity. }
  apply andb_true_iff in Hw as [Hw1 Hw2].
  pose proof (self_closing_alone n ps a (ws :: b) true Hn Hps Hnc Ha) as H. cbn [hd tl forallb] in H.
  rewrite Hws, Hw1, Hw2 in H. apply H; try assumption.
  intros src. unfold trim_rule. cbn [mprops mtype]. rewrite Hhad, Htw. reflexivity.
Qed.

Theorem self_closing_after_nonblank_keeps n ps a b :
  name_ok n -> Forall prop_ok ps -> get_prop (pvalues ps) (STR "trimwhitespace") = None ->
  str_eqb n (STR "character") = false ->
  forallb plain_rune a = true -> forallb plain_rune b = true ->
  forallb CP.no_colon a = true -> forallb CP.no_colon b = true ->
  (Z.of_nat (length a) =? 0) || is_space (lastr a 0%N) = false ->      (* not at the start, not after a blank *)
  no_edge_space (a ++ b) ->
  exists src, parse_markup (a ++ 91%N :: w_self n ps ++ b) =
    Some (a ++ b, [{| aname := n; apos := Z.of_nat (length a); alen := 0; asrc := src;
                      aprops := props_map (pvalues ps) |}]).
Proof.
  intros Hn Hps Htw Hnc Ha Hb Hca Hcb Hhad Hedge.
  apply (self_closing_alone n ps a b false); try assumption.
  intros src. unfold trim_rule. rewrite Hhad. reflexivity.
Qed.

Theorem self_closing_trimwhitespace_false n ps a b :
  name_ok n -> Forall prop_ok ps -> get_prop (pvalues ps) (STR "trimwhitespace") = Some (MBool false) ->
  str_eqb n (STR "character") = false ->
  forallb plain_rune a = true -> forallb plain_rune b = true ->
  forallb CP.no_colon a = true -> forallb CP.no_colon b = true ->
  no_edge_space (a ++ b) ->
  exists src, parse_markup (a ++ 91%N :: w_self n ps ++ b) =
    Some (a ++ b, [{| aname := n; apos := Z.of_nat (length a); alen := 0; asrc := src;
                      aprops := props_map (pvalues ps) |}]).
Proof.
  intros Hn Hps Htw Hnc Ha Hb Hca Hcb Hedge.
  apply (self_closing_alone n ps a b false); try assumption.
  intros src. unfold trim_rule. cbn [mprops]. rewrite Htw. destruct (_ || _); reflexivity.
Qed.
