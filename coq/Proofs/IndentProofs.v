(* Indentation wrapper: the NextToken protocol (ring buffer, one base token pulled and one queued
   token returned per call) delivers exactly [wrap]; [wrap] is balanced, never over-closed, ends in a
   single EOF, is invariant under strictly monotone re-labelling of indentation widths, and blank /
   comment-only lines are transparent. *)
From Coq Require Import List ZArith Bool Lia.
From YS Require Import Proofs.QueueProofs Syntax.Indent.
Import ListNotations.

(* the same protocol with the pending tokens as a list *)
Record astate := { abase : list btok; apend : list tok; aind : list nat }.

Definition anext (s : astate) : option (tok * astate) :=
  let (h, rest) := match abase s with
                   | [] => (Some (handle_eof (aind s)), [])
                   | b :: r => (handle b (aind s), r)
                   end in
  match h with
  | None => None
  | Some (out, st') =>
      match apend s ++ out with
      | [] => None
      | t :: p => Some (t, {| abase := rest; apend := p; aind := st' |})
      end
  end.

Fixpoint apull (fuel : nat) (s : astate) : option (list tok) :=
  match fuel with
  | O => None
  | S f => match anext s with
           | Some (TEOF, _) => Some [TEOF]
           | Some (t, s') => option_map (cons t) (apull f s')
           | None => None
           end
  end.

(* the two flags never change on a non-empty input: NextToken sets hitEOF only in its branch for the
   empty input, so its first test never fires *)
Definition R (s : lstate) (a : astate) : Prop :=
  lbase s = abase a /\ Rep TEOF (pending s) (apend a) /\ indents s = aind a /\
  empty_input s = false /\ hit_eof s = false.

Lemma rep_enqueue_all q l ts : Rep TEOF q l -> Rep TEOF (enqueue_all q ts) (l ++ ts).
Proof.
  revert q l. induction ts as [|t ts IH]; intros q l H; cbn.
  - rewrite app_nil_r. exact H.
  - replace (l ++ t :: ts) with ((l ++ [t]) ++ ts) by (rewrite <- app_assoc; reflexivity).
    apply IH, rep_enqueue, H.
Qed.

Lemma next_token_refines s a : R s a ->
  match anext a with
  | None => (fst (next_token s) = LPanic \/ fst (next_token s) = LNil)
  | Some (t, a') => exists s', next_token s = (LTok t, s') /\ R s' a'
  end.
Proof.
  intros (Hb & HQ & Hi & He & Hh). unfold next_token, anext.
  rewrite Hh, He. cbn [andb]. rewrite <- Hb, <- Hi.
  destruct (match lbase s with [] => _ | _ => _ end) as [[[out st']|] rest].
  - pose proof (rep_enqueue_all _ _ out HQ) as HQ'. cbn [pending].
    rewrite (rep_size TEOF _ _ HQ'). pose proof (rep_dequeue TEOF _ _ HQ') as Hd.
    destruct (apend a ++ out) as [|t p].
    + right. reflexivity.
    + destruct Hd as (q' & Hd & HQq). cbn [length]. rewrite Hd.
      replace (0 <? Z.of_nat (S (length p)))%Z with true by (symmetry; apply Z.ltb_lt; lia).
      eexists. split; [reflexivity|]. repeat split; cbn; auto.
  - left. reflexivity.
Qed.

Lemma pull_refines fuel : forall s a, R s a -> pull fuel s = apull fuel a.
Proof.
  induction fuel as [|f IH]; intros s a HR; [reflexivity|].
  cbn [pull apull]. pose proof (next_token_refines s a HR) as H.
  destruct (anext a) as [[t a']|].
  - destruct H as (s' & Hn & HR'). rewrite Hn. destruct t; try (rewrite (IH _ _ HR'); reflexivity). reflexivity.
  - destruct (next_token s) as [r s']. cbn [fst] in H. destruct H as [H|H]; subst r; reflexivity.
Qed.

Lemma R_init ts : R (linit false ts) {| abase := ts; apend := []; aind := [] |}.
Proof. repeat split. apply rep_empty. Qed.

(* what pull and apull return of a token list: they stop at the first EOF *)
Fixpoint cut (l : list tok) : list tok :=
  match l with
  | [] => []
  | TEOF :: _ => [TEOF]
  | t :: r => t :: cut r
  end.

Definition no_eof (l : list tok) : Prop := ~ In TEOF l.

Lemma cut_app_in p q : In TEOF p -> cut (p ++ q) = cut p.
Proof.
  induction p as [|t p IH]; intros H; [destruct H|].
  destruct t; simpl; f_equal; apply IH; destruct H as [H|H]; try discriminate; exact H.
Qed.

Lemma cut_no_eof p q : no_eof p -> cut (p ++ q) = p ++ cut q.
Proof.
  induction p as [|t p IH]; intros H; [reflexivity|].
  assert (Ht : t <> TEOF) by (intro E; apply H; left; exact E).
  assert (Hp : no_eof p) by (intro E; apply H; right; exact E).
  destruct t; simpl; try (f_equal; apply IH; exact Hp). contradiction.
Qed.

Lemma dedents_no_eof cur st : no_eof (fst (dedents cur st)).
Proof.
  induction st as [|top rest IH]; cbn [dedents]; [intros []|].
  destruct (cur <? top); [|intros []]. destruct (dedents cur rest). intros [E|E]; [discriminate|exact (IH E)].
Qed.

Lemma handle_no_eof b st out st' : handle b st = Some (out, st') -> no_eof out /\ out <> [].
Proof.
  destruct b as [text [|]|ty]; cbn [handle];
    try (intros H; inversion H; split; [intros [E|[]]; discriminate|discriminate]).
  destruct (nl_length text) as [cur|]; [|discriminate].
  assert (N : no_eof (fst (on_newline cur st))).
  { unfold on_newline. destruct (hd 0 st <? cur); [intros [E|[]]; discriminate|].
    destruct (cur <? hd 0 st); [apply dedents_no_eof|intros []]. }
  destruct (on_newline cur st) as [o s2]. intros H; inversion H; subst.
  split; [|discriminate]. intros [E|E]; [discriminate|exact (N E)].
Qed.

Lemma no_eof_app p q : no_eof p -> no_eof q -> no_eof (p ++ q).
Proof. intros Hp Hq E. apply in_app_or in E. destruct E; [apply Hp|apply Hq]; assumption. Qed.

Lemma map_dedent_no_eof (st : list nat) : no_eof (map (fun _ => TDedent) st).
Proof. intros E. apply in_map_iff in E. destruct E as (x & E & _). discriminate. Qed.

Lemma wrap_shape ts : forall st w, wrap ts st = Some w -> exists pre, w = pre ++ [TEOF] /\ no_eof pre.
Proof.
  induction ts as [|b r IH]; intros st w H; cbn [wrap] in H.
  - inversion H; subst. eexists. split; [reflexivity|]. apply map_dedent_no_eof.
  - destruct (handle b st) as [[out st']|] eqn:Eh; [|discriminate].
    destruct (wrap r st') as [w'|] eqn:Ew; [|discriminate]. inversion H; subst.
    destruct (IH _ _ Ew) as (pre & -> & Hpre). exists (out ++ pre). rewrite app_assoc. split; [reflexivity|].
    apply no_eof_app; [apply (handle_no_eof _ _ _ _ Eh)|exact Hpre].
Qed.

Lemma cut_wrap ts st w p : wrap ts st = Some w -> no_eof p -> cut (p ++ w) = p ++ w.
Proof.
  intros H Hp. destruct (wrap_shape _ _ _ H) as (pre & -> & Hpre).
  rewrite app_assoc, cut_no_eof by (apply no_eof_app; assumption). reflexivity.
Qed.

(* the list machine delivers the pending tokens followed by [wrap] of the base, up to the first EOF - also
   when an EOF is already pending: once the base is exhausted every call appends the tokens of EOF again,
   which adds nothing before the first one *)
Lemma apull_cut fuel : forall ts p st w, wrap ts st = Some w ->
  apull fuel {| abase := ts; apend := p; aind := st |} =
  if length (cut (p ++ w)) <=? fuel then Some (cut (p ++ w)) else None.
Proof.
  induction fuel as [|f IH]; intros ts p st w Hw.
  - destruct (wrap_shape _ _ _ Hw) as (pre & -> & _). destruct p as [|[] p], pre as [|[] pre]; reflexivity.
  - (* one call of anext, whether the base is exhausted or gives one more token: it puts a non-empty [out] behind
       the pending tokens and leaves a base [rest] in state [st'], whose wrap [w'] continues the same cut *)
    assert (X : exists out rest st' w', wrap rest st' = Some w' /\ cut (p ++ w) = cut ((p ++ out) ++ w') /\ out <> [] /\
              anext {| abase := ts; apend := p; aind := st |} =
              match p ++ out with [] => None | t :: q => Some (t, {| abase := rest; apend := q; aind := st' |}) end).
    { destruct ts as [|b r]; cbn [wrap] in Hw.
      - inversion Hw. exists (fst (handle_eof st)), [], [], [TEOF].
        split; [reflexivity|]. split; [|split; [|reflexivity]].
        + symmetry. apply cut_app_in, in_or_app. right. apply in_or_app. right. left. reflexivity.
        + cbn. destruct (map _ st); discriminate.
      - unfold anext. cbn [abase aind apend]. destruct (handle b st) as [[out st']|] eqn:Eh; [|discriminate].
        destruct (wrap r st') as [w'|] eqn:Ew; [|discriminate]. inversion Hw. subst w.
        exists out, r, st', w'. rewrite app_assoc.
        split; [exact Ew|]. split; [reflexivity|]. split; [apply (handle_no_eof _ _ _ _ Eh)|reflexivity]. }
    destruct X as (out & rest & st' & w' & Hw' & Hc & Hne & Hn). cbn [apull]. rewrite Hn, Hc.
    destruct (p ++ out) as [|t q] eqn:E; [apply app_eq_nil in E; destruct E; contradiction|].
    (* at an EOF both apull and cut stop *)
    destruct t; try reflexivity; cbn [app cut length Nat.leb]; rewrite (IH rest q st' w' Hw');
      destruct (length (cut (q ++ w')) <=? f); reflexivity.
Qed.

Lemma apull_panic ts : forall fuel p st, wrap ts st = None -> no_eof p ->
  apull fuel {| abase := ts; apend := p; aind := st |} = None.
Proof.
  induction ts as [|b r IH]; intros fuel p st Hw Hp; [discriminate|].
  destruct fuel as [|f]; [reflexivity|].
  cbn [wrap] in Hw. cbn [apull anext abase apend aind].
  destruct (handle b st) as [[out st']|] eqn:Eh; [|reflexivity].
  destruct (wrap r st') as [w'|] eqn:Ew; [discriminate|].
  destruct (handle_no_eof _ _ _ _ Eh) as [Ho Hne].
  assert (Hpo : no_eof (p ++ out)) by (apply no_eof_app; assumption).
  destruct (p ++ out) as [|t q] eqn:E; [reflexivity|].
  assert (Ht : t <> TEOF) by (intro D; apply Hpo; left; exact D).
  assert (Hq : no_eof q) by (intro D; apply Hpo; right; exact D).
  rewrite (IH f q st' Ew Hq). destruct t; try reflexivity. contradiction.
Qed.

(* the token stream delivers [wrap] exactly when its fuel covers it: one call of NextToken per token *)
Theorem pull_wrap ts w fuel : wrap ts [] = Some w ->
  pull fuel (linit false ts) = if length w <=? fuel then Some w else None.
Proof.
  intros Hw. rewrite (pull_refines fuel _ _ (R_init ts)), (apull_cut fuel ts [] [] w Hw), (cut_wrap ts [] w [] Hw (fun x => x)).
  reflexivity.
Qed.

Theorem pull_is_wrap ts w fuel : wrap ts [] = Some w -> length w <= fuel ->
  pull fuel (linit false ts) = Some w.
Proof. intros Hw Hf. rewrite (pull_wrap ts w fuel Hw). destruct (Nat.leb_spec (length w) fuel); [reflexivity|lia]. Qed.

Theorem pull_panics_iff_wrap ts fuel : wrap ts [] = None -> pull fuel (linit false ts) = None.
Proof.
  intros Hw. rewrite (pull_refines fuel _ _ (R_init ts)). apply apull_panic; [exact Hw|intros []].
Qed.

Theorem pull_empty_input ts fuel : pull (S fuel) (linit true ts) = Some [TEOF].
Proof. reflexivity. Qed.

(* [depth d l]: the nesting depth after l, starting at d; None = a DEDENT at depth 0.  The wrapper keeps the
   depth equal to the length of its indents stack (handle_depth, wrap_depth); that INDENT and DEDENT balance
   and that no prefix closes more than it opened are both read off the depth, for any list (depth_spec). *)
Fixpoint depth (d : nat) (l : list tok) : option nat :=
  match l with
  | [] => Some d
  | TIndent :: r => depth (S d) r
  | TDedent :: r => match d with O => None | S d' => depth d' r end
  | _ :: r => depth d r
  end.

Lemma depth_app a : forall d b, depth d (a ++ b) = match depth d a with Some d' => depth d' b | None => None end.
Proof.
  induction a as [|[] a IH]; intros d b; cbn [app depth]; try apply IH; [reflexivity|].
  destruct d; [reflexivity|apply IH].
Qed.

Lemma depth_spec l : forall d d', depth d l = Some d' ->
  count is_indent l + d = count is_dedent l + d' /\ never_overclosed d l = true.
Proof.
  unfold count. induction l as [|[] l IH]; intros d d' H; cbn in *; try (apply IH; exact H).
  - inversion H. auto.
  - destruct (IH _ _ H). split; [lia|assumption].
  - destruct d as [|d]; [discriminate|]. destruct (IH _ _ H). split; [lia|assumption].
Qed.

Lemma depth_dedents (st : list nat) : forall n, depth (length st + n) (map (fun _ => TDedent) st) = Some n.
Proof. induction st as [|x st IH]; intros n; [reflexivity|apply IH]. Qed.

Lemma dedents_depth cur st : forall n,
  depth (length st + n) (fst (dedents cur st)) = Some (length (snd (dedents cur st)) + n).
Proof.
  induction st as [|top rest IH]; intros n; cbn [dedents]; [reflexivity|].
  destruct (cur <? top); [|reflexivity]. specialize (IH n). destruct (dedents cur rest). exact IH.
Qed.

Lemma handle_depth b st out st' : handle b st = Some (out, st') -> depth (length st) out = Some (length st').
Proof.
  destruct b as [text [|]|ty]; cbn [handle]; try (intros H; inversion H; reflexivity).
  destruct (nl_length text) as [cur|]; [|discriminate]. unfold on_newline.
  destruct (hd 0 st <? cur); [intros H; inversion H; reflexivity|].
  destruct (cur <? hd 0 st); [|intros H; inversion H; reflexivity].
  pose proof (dedents_depth cur st 0) as D. rewrite !Nat.add_0_r in D.
  destruct (dedents cur st). intros H; inversion H; subst. exact D.
Qed.

Theorem wrap_depth ts : forall st w, wrap ts st = Some w -> depth (length st) w = Some 0.
Proof.
  induction ts as [|b r IH]; intros st w H; cbn [wrap] in H.
  - inversion H. cbn [handle_eof fst]. rewrite depth_app.
    pose proof (depth_dedents st 0) as D. rewrite Nat.add_0_r in D. rewrite D. reflexivity.
  - destruct (handle b st) as [[out st']|] eqn:Eh; [|discriminate].
    destruct (wrap r st') as [w'|] eqn:Ew; [|discriminate]. inversion H.
    rewrite depth_app, (handle_depth _ _ _ _ Eh). exact (IH _ _ Ew).
Qed.

Theorem wrap_balanced ts st w : wrap ts st = Some w -> count is_indent w + length st = count is_dedent w.
Proof. intros H. destruct (depth_spec _ _ _ (wrap_depth _ _ _ H)). lia. Qed.

Theorem wrap_never_overclosed ts st w : wrap ts st = Some w -> never_overclosed (length st) w = true.
Proof. intros H. apply (depth_spec _ _ _ (wrap_depth _ _ _ H)). Qed.

Lemma never_overclosed_app a : forall depth b,
  (forall t, In t a -> t <> TIndent /\ t <> TDedent) ->
  never_overclosed depth (a ++ b) = never_overclosed depth b.
Proof.
  induction a as [|t a IH]; intros depth b H; [reflexivity|].
  destruct (H t (or_introl eq_refl)) as [H1 H2].
  assert (H' : forall t', In t' a -> t' <> TIndent /\ t' <> TDedent) by (intros; apply H; right; assumption).
  destruct t; simpl; try (apply IH; exact H'); contradiction.
Qed.

Section Relabel.
  Variable phi : nat -> nat.
  Hypothesis phi0 : phi 0 = 0.
  Hypothesis mono : forall a b, a < b <-> phi a < phi b.

  Lemma ltb_phi a b : (phi a <? phi b) = (a <? b).
  Proof. apply eq_true_iff_eq. rewrite !Nat.ltb_lt. symmetry. apply mono. Qed.

  Lemma dedents_phi cur st : dedents (phi cur) (map phi st) =
     (fst (dedents cur st), map phi (snd (dedents cur st))).
  Proof.
    induction st as [|top rest IH]; simpl; [reflexivity|].
    rewrite ltb_phi. destruct (cur <? top); [|reflexivity].
    rewrite IH. destruct (dedents cur rest). reflexivity.
  Qed.

  Lemma hd_phi st : hd 0 (map phi st) = phi (hd 0 st).
  Proof. destruct st; simpl; auto. Qed.

  Lemma on_newline_phi cur st : on_newline (phi cur) (map phi st) =
     (fst (on_newline cur st), map phi (snd (on_newline cur st))).
  Proof.
    unfold on_newline. rewrite hd_phi, !ltb_phi.
    destruct (hd 0 st <? cur); [reflexivity|].
    destruct (cur <? hd 0 st); [apply dedents_phi|reflexivity].
  Qed.

  (* two base streams related token by token: same tokens, newline widths re-labelled by phi *)
  Inductive rel_btok : btok -> btok -> Prop :=
  | rel_skip t1 t2 : rel_btok (BNL t1 true) (BNL t2 true)
  | rel_nl t1 t2 w : nl_length t1 = Some w -> nl_length t2 = Some (phi w) ->
                     rel_btok (BNL t1 false) (BNL t2 false)
  | rel_other ty : rel_btok (BOther ty) (BOther ty).

  Theorem wrap_order_type ts1 ts2 : Forall2 rel_btok ts1 ts2 ->
    forall st, wrap ts2 (map phi st) = wrap ts1 st.
  Proof.
    induction 1 as [|b1 b2 r1 r2 Hb Hr IH]; intros st.
    - cbn [wrap handle_eof fst]. rewrite map_map. reflexivity.
    - cbn [wrap]. destruct Hb as [t1 t2|t1 t2 w H1 H2|ty]; cbn [handle].
      + rewrite IH. reflexivity.
      + rewrite H1, H2, on_newline_phi. destruct (on_newline w st) as [o s2]. cbn [fst snd].
        rewrite IH. reflexivity.
      + rewrite IH. reflexivity.
  Qed.
End Relabel.

Definition visible (t : tok) : bool := match t with TNL => false | _ => true end.

(* a blank or comment-only line (skip = true) contributes only a NEWLINE token, which BodyMode
   sends to a hidden channel *)
Theorem skip_transparent pre : forall post st text,
  option_map (filter visible) (wrap (pre ++ BNL text true :: post) st) =
  option_map (filter visible) (wrap (pre ++ post) st).
Proof.
  induction pre as [|b r IH]; intros post st text.
  - cbn [app wrap handle]. destruct (wrap post st); reflexivity.
  - cbn [app wrap]. destruct (handle b st) as [[out st']|]; [|reflexivity].
    specialize (IH post st' text).
    destruct (wrap (r ++ BNL text true :: post) st'), (wrap (r ++ post) st'); cbn in *;
      try discriminate; try reflexivity.
    inversion IH as [E]. rewrite !filter_app, E. reflexivity.
Qed.

Theorem pull_sound ts fuel out : pull fuel (linit false ts) = Some out -> wrap ts [] = Some out.
Proof.
  destruct (wrap ts []) as [w|] eqn:Ew.
  - rewrite (pull_wrap ts w fuel Ew). destruct (length w <=? fuel); [exact (fun H => H)|discriminate].
  - rewrite (pull_panics_iff_wrap ts fuel Ew). discriminate.
Qed.

Theorem token_stream_balanced ts fuel out : pull fuel (linit false ts) = Some out ->
  count is_indent out = count is_dedent out /\ never_overclosed 0 out = true /\
  exists pre, out = pre ++ [TEOF] /\ ~ In TEOF pre.
Proof.
  intros H. apply pull_sound in H. split; [|split].
  - pose proof (wrap_balanced ts [] out H). simpl in *. lia.
  - apply (wrap_never_overclosed ts [] out H).
  - apply (wrap_shape ts [] out H).
Qed.

(* the stream is produced (no nil token, no fuel problem) whenever no indentation mixes tabs and spaces *)
Definition clean_btok (b : btok) : Prop :=
  match b with BNL text false => nl_length text <> None | _ => True end.

Lemma handle_total b st : clean_btok b -> handle b st <> None.
Proof.
  destruct b as [text [|]|ty]; cbn [handle clean_btok]; try discriminate.
  intros H. destruct (nl_length text); [|contradiction]. destruct (on_newline _ st). discriminate.
Qed.

Lemma wrap_total ts : Forall clean_btok ts -> forall st, wrap ts st <> None.
Proof.
  induction 1 as [|b r Hb Hr IH]; intros st; cbn [wrap]; [discriminate|].
  destruct (handle b st) as [[out st']|] eqn:E; [|destruct (handle_total b st Hb E)].
  specialize (IH st'). destruct (wrap r st'); [discriminate|contradiction].
Qed.

Theorem token_stream_total ts : Forall clean_btok ts ->
  exists out, wrap ts [] = Some out /\ forall fuel, length out <= fuel -> pull fuel (linit false ts) = Some out.
Proof.
  intros H. destruct (wrap ts []) as [w|] eqn:E; [|exfalso; apply (wrap_total ts H [] E)].
  exists w. split; [reflexivity|]. intros fuel Hf. apply pull_is_wrap; assumption.
Qed.
