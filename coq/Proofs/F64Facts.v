(* Facts about binary64 arithmetic that the proofs about numbers rest on, through Flocq:
   [rnd], the rounding to nearest even that every operation of Num/F64.v performs; which reals are
   in the format; each operation returns [rnd] of the exact result when that does not overflow
   (Flocq's B*_correct with the overflow test decided); Go's float64 -> int64 conversion. *)
From Coq Require Import Reals Lia Bool.
From Flocq Require Import Core BinarySingleNaN.
From YS Require Import Num.F64.
Local Open Scope R_scope.

Notation emin := (3 - emax - prec)%Z.
Notation fexp := (FLT_exp emin prec).
Notation format := (generic_format radix2 fexp).
Notation rnd := (round radix2 fexp (round_mode mode_NE)).

Lemma format_bpow k : (emin <= k)%Z -> format (bpow radix2 k).
Proof. intros H. apply generic_format_bpow. unfold FLT_exp, emax, prec in *. lia. Qed.

Lemma format_int z : (Z.abs z < 2 ^ prec)%Z -> format (IZR z).
Proof.
  intros H. apply generic_format_FLT. exists (Float radix2 z 0); [unfold F2R; simpl; ring|exact H|].
  simpl. unfold emax, prec. lia.
Qed.

Lemma int_lt_emax z : (Z.abs z < 2 ^ prec)%Z -> Rabs (IZR z) < bpow radix2 emax.
Proof.
  intros H. rewrite <- abs_IZR. apply Rlt_le_trans with (IZR (2 ^ prec)); [apply IZR_lt, H|].
  change (IZR (2 ^ prec)) with (bpow radix2 prec). apply bpow_le. discriminate.
Qed.

Lemma rnd_mono a b : a <= b -> rnd a <= rnd b.
Proof. apply round_le; [apply FLT_exp_valid; reflexivity|apply valid_rnd_N]. Qed.

Lemma rnd_exact r : format r -> rnd r = r.
Proof. apply round_generic, valid_rnd_N. Qed.

Lemma rnd_range a b r : format a -> format b -> a <= r <= b -> a <= rnd r <= b.
Proof.
  intros Fa Fb [H1 H2]. rewrite <- (rnd_exact a Fa), <- (rnd_exact b Fb). split; apply rnd_mono; assumption.
Qed.

Lemma rnd_abs_le r k : (emin <= k)%Z -> Rabs r <= bpow radix2 k -> Rabs (rnd r) <= bpow radix2 k.
Proof.
  intros Hk H. apply Rabs_le, rnd_range; [apply generic_format_opp| |apply Rabs_le_inv, H]; apply format_bpow, Hk.
Qed.

(* no overflow: the exact result is at most 2^k for some k below emax (a literal: the test computes) *)
Lemma rnd_lt_emax r k : (emin <=? k)%Z && (k <? emax)%Z = true ->
  Rabs r <= bpow radix2 k -> Rabs (rnd r) < bpow radix2 emax.
Proof.
  intros [H1%Z.leb_le H2%Z.ltb_lt]%andb_true_iff H.
  apply Rle_lt_trans with (bpow radix2 k); [apply rnd_abs_le; assumption|apply bpow_lt, H2].
Qed.

Section Ops.
  Variables x y : f64.
  Hypotheses (Fx : is_finite x = true) (Fy : is_finite y = true).

  Lemma fadd_correct : Rabs (rnd (B2R x + B2R y)) < bpow radix2 emax ->
    B2R (fadd x y) = rnd (B2R x + B2R y) /\ is_finite (fadd x y) = true.
  Proof.
    intros H. pose proof (Bplus_correct prec emax Hprec Hmax mode_NE x y Fx Fy) as C.
    rewrite Rlt_bool_true in C by exact H. split; apply C.
  Qed.

  Lemma fsub_correct : Rabs (rnd (B2R x - B2R y)) < bpow radix2 emax ->
    B2R (fsub x y) = rnd (B2R x - B2R y) /\ is_finite (fsub x y) = true.
  Proof.
    intros H. pose proof (Bminus_correct prec emax Hprec Hmax mode_NE x y Fx Fy) as C.
    rewrite Rlt_bool_true in C by exact H. split; apply C.
  Qed.

  Lemma fmul_correct : Rabs (rnd (B2R x * B2R y)) < bpow radix2 emax ->
    B2R (fmul x y) = rnd (B2R x * B2R y) /\ is_finite (fmul x y) = true.
  Proof.
    intros H. pose proof (Bmult_correct prec emax Hprec Hmax mode_NE x y) as C.
    rewrite Rlt_bool_true, Fx, Fy in C by exact H. split; apply C.
  Qed.

  Lemma fdiv_correct : B2R y <> 0 -> Rabs (rnd (B2R x / B2R y)) < bpow radix2 emax ->
    B2R (fdiv x y) = rnd (B2R x / B2R y) /\ is_finite (fdiv x y) = true.
  Proof.
    intros Ny H. pose proof (Bdiv_correct prec emax Hprec Hmax mode_NE x y Ny) as C.
    rewrite Rlt_bool_true, Fx in C by exact H. split; apply C.
  Qed.
End Ops.

Lemma of_Z_correct z : Rabs (rnd (IZR z)) < bpow radix2 emax ->
  B2R (of_Z z) = rnd (IZR z) /\ is_finite (of_Z z) = true.
Proof.
  intros H. pose proof (binary_normalize_correct prec emax Hprec Hmax mode_NE z 0 false) as C. cbv zeta in C.
  replace (F2R (Float radix2 z 0)) with (IZR z) in C by (unfold F2R; simpl; ring).
  rewrite Rlt_bool_true in C by exact H. split; apply C.
Qed.

Lemma of_Z_exact z : format (IZR z) -> Rabs (IZR z) < bpow radix2 emax ->
  B2R (of_Z z) = IZR z /\ is_finite (of_Z z) = true.
Proof.
  intros F H. rewrite <- (rnd_exact _ F) in H. destruct (of_Z_correct z H) as [E Fi].
  rewrite E, rnd_exact by exact F. auto.
Qed.

Lemma trunc_R (x : f64) : IZR (Btrunc x) = IZR (Ztrunc (B2R x)).
Proof. rewrite (Btrunc_correct prec emax Hmax x). apply round_FIX_IZR. Qed.

(* inside the int64 range Go's conversion is the truncation *)
Lemma to_int64_trunc (x : f64) :
  is_finite x = true -> (- two63 <= Btrunc x < two63)%Z -> to_int64 x = Btrunc x.
Proof.
  intros F [R1 R2]. destruct x; try discriminate; [reflexivity|]. unfold to_int64.
  apply Z.leb_le in R1. apply Z.ltb_lt in R2. rewrite R1, R2. reflexivity.
Qed.
