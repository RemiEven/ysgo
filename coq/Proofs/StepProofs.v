(* One iteration of DialogueRunner.Next without the recursion, in two parts: what a statement does
   to the data state and what it tells the control to do (exec_stmt, shared by Runner.next and
   FlowSpec.srun), and what the stack machine does with that answer (next_step).  Then: everything the
   proofs need to know about one statement (exec_stmt_spec), and the induction over Next. *)
From Coq Require Import List NArith.
From YS Require Import Yarn.Ast Yarn.Eval Yarn.Runner Proofs.RunnerInv Proofs.SetProofs.
Import ListNotations.

Inductive ctl :=
| Yield (r : nres) (lo : option (list (line * list stmt)))   (* return r; lo = the option group now waiting *)
| Cont (b : option (list stmt))                             (* go on, after entering block b if any *)
| Goto (b : list stmt)                                      (* abandon everything pending, run b *)
| Halt.                                                     (* <<stop>> *)

Definition exec_stmt (d : dialogue) (st : stmt) (s : dstate) : ctl * dstate :=
  match st with
  | SLine l => match render_line s l with
               | (Val rl, s3) => (Yield (NElem (ELine (cur s3) rl)) None, s3)
               | (Fail, s3) => (Yield NErr None, s3)
               | (Crash, s3) => (Yield NPanic None, s3)
               end
  | SOpts os => match render_options s os with
                | (Val ros, s3) => (Yield (NElem (EOpts (cur s3) ros)) (Some os), s3)
                | (Fail, s3) => (Yield NErr None, s3)
                | (Crash, s3) => (Yield NPanic None, s3)
                end
  | SSet x op e => match exec_set x op e s with
                   | (true, s3) => (Cont None, s3)
                   | (false, s3) => (Yield NErr None, s3)
                   end
  | SDeclare x e => match exec_set x SAssign e s with
                    | (true, s3) => (Cont None, s3)
                    | (false, s3) => (Yield NErr None, s3)
                    end
  | SJump e => match exec_jump d e s with
               | (Some b, s3) => (Goto b, s3)
               | (None, s3) => (Yield NErr None, s3)
               end
  | SIf cs => match exec_if cs s with
              | (Val ob, s3) => (Cont ob, s3)
              | (Fail, s3) => (Yield NErr None, s3)
              | (Crash, s3) => (Yield NPanic None, s3)
              end
  | SCmd es => match exec_command es s with
               | (CmdStop, s3) => (Halt, s3)
               | (CmdDone, s3) => (Cont None, s3)
               | (CmdWait, s3) => (Yield NWait None, s3)
               | (CmdErr, s3) => (Yield NErr None, s3)
               end
  | SCall fn args => match exec_call fn args s with
                     | (true, s3) => (Cont None, s3)
                     | (false, s3) => (Yield NErr None, s3)
                     end
  end.

Inductive step_res := Done (r : nres) (m : rstate) | More (m : rstate).

Definition apply_ctl (stk : list (list stmt)) (a : ctl * dstate) : step_res :=
  let (c, s) := a in
  match c with
  | Yield r lo => Done r (mk stk lo s)
  | Cont None => More (mk stk None s)
  | Cont (Some b) => More (mk (b :: stk) None s)
  | Goto b => More (mk [b] None s)
  | Halt => Done NEnd (mk [] None s)
  end.

Definition next_step (d : dialogue) (m : rstate) (c : Z) : step_res :=
  match poll (dat m) with
  | (Some r, s0) => Done r (mk (stack m) (last_opts m) s0)
  | (None, s0) =>
      match chosen_body (last_opts m) c with
      | None => Done NPanic (mk (stack m) (last_opts m) s0)
      | Some b =>
          match (if is_nil b then stack m else b :: stack m) with
          | [] => Done NEnd (mk [] None s0)
          | [] :: rest => More (mk rest (last_opts m) s0)
          | (st :: q) :: rest => apply_ctl (q :: rest) (exec_stmt d st s0)
          end
      end
  end.

Definition resume (d : dialogue) (f : nat) (c : Z) (x : step_res) : nres * rstate :=
  match x with Done r m => (r, m) | More m => next d f m c end.

Lemma next_S d f m c : next d (S f) m c = resume d f c (next_step d m c).
Proof.
  cbn [next]. unfold next_step. destruct (poll (dat m)) as [[r|] s0]; [reflexivity|].
  destruct (chosen_body (last_opts m) c) as [b|]; [|reflexivity].
  destruct (if is_nil b then stack m else b :: stack m) as [|[|st q] rest]; [reflexivity..|].
  destruct st as [l|os|x op e|e|cs|es|fn args|x e]; cbn [exec_stmt].
  - destruct (render_line s0 l) as [[rl| |] s3]; reflexivity.
  - destruct (render_options s0 os) as [[ros| |] s3]; reflexivity.
  - destruct (exec_set x op e s0) as [[|] s3]; reflexivity.
  - destruct (exec_jump d e s0) as [[b'|] s3]; reflexivity.
  - destruct (exec_if cs s0) as [[[b'|]| |] s3]; reflexivity.
  - destruct (exec_command es s0) as [[| | |] s3]; reflexivity.
  - destruct (exec_call fn args s0) as [[|] s3]; reflexivity.
  - destruct (exec_set x SAssign e s0) as [[|] s3]; reflexivity.
Qed.

(* the induction behind every property of one run of Next.  I: holds of the states Next passes
   through; Q: holds of what it returns *)
Lemma next_inv d c (I : rstate -> Prop) (Q : nres -> rstate -> Prop) :
  (forall m, I m -> Q NFuel m) ->
  (forall m, I m -> match next_step d m c with Done r m' => Q r m' | More m' => I m' end) ->
  forall f m r m', I m -> next d f m c = (r, m') -> Q r m'.
Proof.
  intros HF HS. induction f as [|f IH]; intros m r m' Hm H.
  - inversion H; subst. exact (HF _ Hm).
  - rewrite next_S in H. specialize (HS m Hm).
    destruct (next_step d m c); [inversion H; subst; exact HS|exact (IH _ _ _ HS H)].
Qed.

Lemma next_poll d f m c :
  next d (S f) m c = match poll (dat m) with
                     | (Some r, s0) => (r, mk (stack m) (last_opts m) s0)
                     | (None, s0) => next d (S f) (mk (stack m) (last_opts m) s0) c
                     end.
Proof.
  cbn [next]. destruct (poll (dat m)) as [[r|] s0] eqn:E; [reflexivity|].
  cbn [dat stack last_opts mk]. rewrite (poll_none s0 (poll_idem _ _ E)). reflexivity.
Qed.

(* the three ways the data state changes: on the host side; by one write (after evaluation); by
   entering a node (after evaluation) *)
Inductive change (d : dialogue) (s : dstate) : dstate -> Prop :=
| ch_host e p sc : change d s (upd_host s e p sc)
| ch_write e k v : change d s (host_write (upd_fe s e) k v)
| ch_enter e n : change d s (enter d n (upd_fe s e)).

Lemma only_fe_change d s s' : only_fe s s' -> change d s s'.
Proof. intros ->. exact (ch_host d s _ (pending s) (sched s)). Qed.

(* what a statement may tell the control: an element (leaving its option group waiting exactly when
   it is one), an error, a wait - never a panic, never the end *)
Definition ctl_ok (c : ctl) : Prop :=
  match c with
  | Yield (NElem (EOpts _ _)) (Some _) | Yield (NElem (ELine _ _)) None
  | Yield NErr None | Yield NWait None | Cont _ | Goto _ | Halt => True
  | _ => False
  end.

(* third part: only exec_command sets [pending], and exactly when it answers with a wait
   (exec_command_spec); with it "nothing is pending" is kept along the recursion of Next
   (mnext_srun, next_end_state, after_error_no_choice_pending) *)
Definition stmt_ok (d : dialogue) (s : dstate) (a : ctl * dstate) : Prop :=
  change d s (snd a) /\ ctl_ok (fst a) /\
  (pending s = None -> fst a = Yield NWait None \/ pending (snd a) = None).

Lemma stmt_ok_same d s s' c : change d s s' -> pending s' = pending s -> ctl_ok c -> stmt_ok d s (c, s').
Proof. intros C E K. split; [exact C|]. split; [exact K|]. intros Hp. right. cbn [snd]. congruence. Qed.

Lemma stmt_ok_fe {d s s' c} : only_fe s s' -> ctl_ok c -> stmt_ok d s (c, s').
Proof. intros E. apply stmt_ok_same; [exact (only_fe_change d _ _ E)|rewrite E; reflexivity]. Qed.

(* a statement that only evaluates or renders: whatever it answers with a value, it cannot panic *)
Lemma stmt_ok_ev {A} d s (r : outcome A * dstate) (k : A -> dstate -> ctl) :
  ev_ok s r -> (forall a t, ctl_ok (k a t)) ->
  stmt_ok d s (match r with
               | (Val a, t) => (k a t, t) | (Fail, t) => (Yield NErr None, t) | (Crash, t) => (Yield NPanic None, t)
               end).
Proof.
  intros [N E] K. destruct r as [[a| |] t]; cbn [fst snd] in *; [apply (stmt_ok_fe E), K|apply (stmt_ok_fe E); exact I|destruct (N eq_refl)].
Qed.

Lemma exec_stmt_spec d st s : stmt_ok d s (exec_stmt d st s).
Proof.
  assert (HS : forall x op e, stmt_ok d s (match exec_set x op e s with
                                          | (true, s3) => (Cont None, s3) | (false, s3) => (Yield NErr None, s3) end)).
  { intros x op e. destruct (exec_set_cases x op e s) as [e1 [->|[r ->]]].
    - apply (stmt_ok_fe (s' := upd_fe s e1)); [reflexivity|exact I].
    - apply stmt_ok_same; [constructor|reflexivity|exact I]. }
  destruct st as [l|os|x op e|e|cs|es|fn args|x e]; cbn [exec_stmt].
  - apply stmt_ok_ev; [apply render_line_ok|intros; exact I].
  - apply stmt_ok_ev; [apply render_options_ok|intros; exact I].
  - apply HS.
  - rewrite exec_jump_shape. cbn zeta. destruct (eval_in_ok s e) as [_ E].
    destruct (fst (eval_in s e)) as [[n|b|t]| |]; [| |destruct (find_node d t) as [n|]|..]; cbn iota;
      try (apply (stmt_ok_fe E); exact I).
    apply stmt_ok_same; [rewrite E; constructor|rewrite E; reflexivity|exact I].
  - apply stmt_ok_ev; [apply exec_if_ok|intros; exact I].
  - (* the one statement that can leave a command pending, and then it answers with a wait *)
    pose proof (exec_command_spec es s) as K. destruct (exec_command es s) as [r s3]. destruct K as [E P].
    assert (C : change d s s3) by (rewrite E; constructor).
    destruct r; (split; [exact C|]; split; [exact I|]; intros Hp;
                 first [left; reflexivity|right; apply (P Hp); discriminate]).
  - pose proof (exec_call_frame fn args s) as E.
    destruct (exec_call fn args s) as [[|] s3]; apply (stmt_ok_fe E); exact I.
  - apply HS.
Qed.

Lemma next_preserves d (P : dstate -> Prop) :
  (forall s s', change d s s' -> P s -> P s') ->
  forall fm m c, P (dat m) -> P (dat (snd (next d fm m c))).
Proof.
  intros HP fm m c H0. destruct (next d fm m c) as [r m'] eqn:E. revert fm m r m' H0 E.
  apply (next_inv d c (fun m => P (dat m)) (fun _ m' => P (dat m'))); [auto|].
  intros m H0. unfold next_step.
  assert (H1 : P (snd (poll (dat m)))) by (rewrite poll_host; exact (HP _ _ (ch_host d _ _ _ _) H0)).
  destruct (poll (dat m)) as [[r0|] s0]; [exact H1|]. cbn [snd] in H1.
  destruct (chosen_body (last_opts m) c) as [b|]; [|exact H1].
  destruct (if is_nil b then stack m else b :: stack m) as [|[|st q] rest]; [exact H1..|].
  destruct (exec_stmt_spec d st s0) as (C & _). pose proof (HP _ _ C H1) as H.
  destruct (exec_stmt d st s0) as [[r lo|[b'|]|b'|] s3]; exact H.
Qed.
