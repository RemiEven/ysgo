(* Expressions as the tokens of the real lexer's vocabulary: the instance of the "expression writer" that
   the statement-level theorems take as a parameter.  An expression is written with minimal parentheses
   (print_min over the generated precedence table), each token as the (kind, text) pair the lexer would
   deliver: `$x`, `"s"`, the digits of a number, true / false / null, operator and punctuation kinds.
   The only condition is on numerals: the text chosen for a number must be read back as that number
   (num_ok; number(string(x)) = x is not proved in general - it is checked per literal, by computation). *)
From Coq Require Import List Bool ZArith Lia.
From Flocq Require Import BinarySingleNaN.
From YS Require Import Base.Sexp Num.F64 Num.Decimal Yarn.Ast Generated.ExprTable Generated.TokenTable
  Syntax.ExprParser Syntax.StmtParser Proofs.ExprParserProofs Proofs.ExprFuelProofs Proofs.StmtParserProofs Proofs.StmtParserTop.
Import ListNotations.

Definition kind_of_binop (o : binop) : kind :=
  match o with
  | OMul => K_OPERATOR_MATHS_MULTIPLICATION | ODiv => K_OPERATOR_MATHS_DIVISION | OMod => K_OPERATOR_MATHS_MODULUS
  | OAdd => K_OPERATOR_MATHS_ADDITION | OSub => K_OPERATOR_MATHS_SUBTRACTION
  | OLe => K_OPERATOR_LOGICAL_LESS_THAN_EQUALS | OGe => K_OPERATOR_LOGICAL_GREATER_THAN_EQUALS
  | OLt => K_OPERATOR_LOGICAL_LESS | OGt => K_OPERATOR_LOGICAL_GREATER
  | OEq => K_OPERATOR_LOGICAL_EQUALS | ONe => K_OPERATOR_LOGICAL_NOT_EQUALS
  | OAnd => K_OPERATOR_LOGICAL_AND | OOr => K_OPERATOR_LOGICAL_OR | OXor => K_OPERATOR_LOGICAL_XOR
  end.

(* the listener's operator map, as regenerated from the Go source, reads these kinds back *)
Lemma binop_kind_roundtrip o : binop_of_kind (kind_of_binop o) = Some o.
Proof. destruct o; reflexivity. Qed.

(* an operator token is written without text: only its kind is read *)
Definition T_of_tok (t : tok) : kind * str :=
  match t with
  | TLP => (K_LPAREN, STR "(")
  | TRP => (K_RPAREN, STR ")")
  | TComma => (K_COMMA, STR ",")
  | TNot => (K_OPERATOR_LOGICAL_NOT, STR "!")
  | TOp o => (kind_of_binop o, [])
  | TAtom (AVal (VBool true)) => (K_KEYWORD_TRUE, STR "true")
  | TAtom (AVal (VBool false)) => (K_KEYWORD_FALSE, STR "false")
  | TAtom (AVal (VStr s)) => (K_STRING, 34%N :: s ++ [34%N])
  | TAtom (AVal (VNum f)) => (K_NUMBER, fmt_f f)
  | TAtom (AVar x) => (K_VAR_ID, 36%N :: x)
  | TAtom ANull => (K_KEYWORD_NULL, STR "null")
  | TFunc f => (K_FUNC_ID, f)
  end.

(* sameness of two doubles, decidable by computation (the record carries a proof that the mantissa fits;
   two such proofs are equal because equality on bool is decidable - no axiom) *)
Definition f64_same (x y : f64) : bool :=
  match x, y with
  | B754_zero a, B754_zero b => Bool.eqb a b
  | B754_infinity a, B754_infinity b => Bool.eqb a b
  | B754_nan, B754_nan => true
  | B754_finite s m e _, B754_finite s' m' e' _ => Bool.eqb s s' && Pos.eqb m m' && Z.eqb e e'
  | _, _ => false
  end.

Lemma f64_same_eq x y : f64_same x y = true -> x = y.
Proof.
  destruct x as [a|a| |s m e H]; destruct y as [b|b| |s' m' e' H']; cbn [f64_same]; try discriminate; intros E.
  - apply Bool.eqb_prop in E. subst. reflexivity.
  - apply Bool.eqb_prop in E. subst. reflexivity.
  - reflexivity.
  - apply andb_true_iff in E as [E E3]. apply andb_true_iff in E as [E1 E2].
    apply Bool.eqb_prop in E1. apply Pos.eqb_eq in E2. apply Z.eqb_eq in E3. subst.
    f_equal. apply Eqdep_dec.UIP_dec. apply Bool.bool_dec.
Qed.

Definition num_ok (f : f64) : Prop := f64_same (number_of_text (fmt_f f)) f = true.
Definition tok_ok (t : tok) : Prop := match t with TAtom (AVal (VNum f)) => num_ok f | _ => True end.

Lemma etok_roundtrip t : tok_ok t -> etok_of (T_of_tok t) = Some t.
Proof.
  destruct t as [| | | |o|a|f]; try reflexivity.
  - intros _. cbn [T_of_tok etok_of]. destruct o; reflexivity.
  - destruct a as [v|x|]; try reflexivity. destruct v as [n|b|s]; cbn [tok_ok T_of_tok].
    + intros H. cbn [etok_of]. unfold num_ok in H. rewrite (f64_same_eq _ _ H). reflexivity.
    + intros _. destruct b; reflexivity.
    + intros _. cbn [etok_of]. unfold strip_quotes. cbn [tl]. rewrite removelast_last. reflexivity.
Qed.

Lemma take_etoks_map ts : Forall tok_ok ts -> take_etoks (map T_of_tok ts) = (ts, []).
Proof.
  Local Transparent take_etoks.
  induction 1 as [|t ts Ht _ IH]; [reflexivity|]. cbn [map take_etoks]. rewrite (etok_roundtrip t Ht), IH. reflexivity.
  Local Opaque take_etoks.
Qed.

Local Notation pmin := (print_min level right_prec neg_operand_prec not_operand_prec).

(* the writer, and the expressions it is good for: every numeral is read back *)
Definition er_min (e : expr) : list (kind * str) := map T_of_tok (pmin 0 e).
Definition ewf_min (e : expr) : Prop := Forall tok_ok (pmin 0 e).

Lemma T_of_tok_is_etok t : is_etok (T_of_tok t).
Proof.
  unfold is_etok. destruct t as [| | | |o|a|f]; try (cbn; discriminate).
  - cbn [T_of_tok etok_of]. destruct o; cbn; discriminate.
  - destruct a as [v|y|]; try (cbn; discriminate). destruct v as [n|b|s]; try (cbn; discriminate).
    destruct b; cbn; discriminate.
Qed.

Lemma er_min_is_etok e : Forall is_etok (er_min e).
Proof. unfold er_min. apply Forall_forall. intros t Ht. apply in_map_iff in Ht as (x & <- & _). apply T_of_tok_is_etok. Qed.

Lemma er_min_toks e : ewf_min e -> Forall is_etok (er_min e).
Proof. intros _. apply er_min_is_etok. Qed.

Lemma er_min_parse e : ewf_min e -> parse_expression (fst (take_etoks (er_min e))) = Some e.
Proof.
  intros H. unfold er_min. rewrite (take_etoks_map _ H). cbn [fst].
  destruct (print_min_prints level right_prec neg_operand_prec not_operand_prec e 0) as (k & Hp).
  exact (written_expression_parses e _ k Hp).
Qed.

Lemma er_min_call f args : ewf_min (ECall f args) ->
  parse_call_toks (fst (take_etoks (er_min (ECall f args)))) = Some (f, args).
Proof.
  intros H. unfold er_min. rewrite (take_etoks_map _ H). cbn [fst].
  destruct (print_min_prints level right_prec neg_operand_prec not_operand_prec (ECall f args) 0) as (k & Hp).
  inversion Hp as [q a Ea| | | |q fn a tss Hargs|]; subst.
  { destruct a; discriminate. }
  unfold parse_call_toks.
  cbn [print_min]. match goal with H : _ = _ :> list tok |- _ => rewrite <- H end.
  pose proof (proj1 (proj2 (prints_parse_fuel _ _ _ _ generated_table_wf)) args tss Hargs []) as Hb.
  apply (PA_mono _ _ _ _ _ (4 * length (TFunc f :: TLP :: tss ++ [TRP]) + 4)) in Hb; [rewrite Hb; reflexivity|].
  cbn [length]. rewrite app_length. lia.
Qed.

Lemma er_min_value v : ewf_min v -> (exists a, v = expr_of_atom a) \/ (exists f args, v = ECall f args) ->
  parse_value_toks (fst (take_etoks (er_min v))) = Some v.
Proof.
  intros H [[a ->]|(f & args & ->)].
  - unfold er_min. rewrite (take_etoks_map _ H). cbn [fst]. destruct a as [w|x|]; reflexivity.
  - pose proof (er_min_call f args H) as Hc. unfold parse_value_toks. rewrite Hc.
    unfold er_min in *. rewrite (take_etoks_map _ H) in *. cbn [fst] in *.
    cbn [print_min]. reflexivity.
Qed.

(* a dialogue may also be empty of numerals altogether: then nothing is asked *)
Lemma ewf_min_no_numbers e : (forall f, ~ In (TAtom (AVal (VNum f))) (pmin 0 e)) -> ewf_min e.
Proof.
  intros H. unfold ewf_min. apply Forall_forall. intros t Ht. destruct t as [| | | |o|a|f]; try exact I.
  destruct a as [v|x|]; try exact I. destruct v as [n|b|s]; try exact I. exfalso. exact (H n Ht).
Qed.

Theorem written_script_tokens_are_loaded tags ns : ns <> [] -> Forall (node_ok er_min ewf_min) ns ->
  from_reader 0 (p_script er_min tags ns) = Some (map mean_node ns).
Proof.
  apply (written_script_is_loaded er_min ewf_min).
  - exact er_min_is_etok.
  - exact er_min_parse.
  - exact er_min_call.
  - exact er_min_value.
Qed.
