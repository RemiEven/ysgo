(* C17: the words of a generic command.  Classification: true / false, decimal literals, every other
   word a string.  Separation: the words are the maximal runs of non-whitespace.  rearrange: token
   boundaries inside text do not matter, inline expressions stay in place. *)
From Coq Require Import List ZArith Bool Lia.
From YS Require Import Base.Sexp Num.F64 Num.Decimal Yarn.Ast Yarn.Value Syntax.CommandText.
Import ListNotations.

Theorem classify_true : value_from_command_text (STR "true") = VBool true.
Proof. reflexivity. Qed.
Theorem classify_false : value_from_command_text (STR "false") = VBool false.
Proof. reflexivity. Qed.

Theorem classify_number w n : str_eqb w (STR "true") = false -> str_eqb w (STR "false") = false ->
  is_decimal_literal w = true -> parse_float w = Some n -> value_from_command_text w = VNum n.
Proof. intros H1 H2 H3 H4. unfold value_from_command_text. rewrite H1, H2, H3, H4. reflexivity. Qed.

Theorem classify_string w : str_eqb w (STR "true") = false -> str_eqb w (STR "false") = false ->
  is_decimal_literal w = false -> value_from_command_text w = VStr w.
Proof. intros H1 H2 H3. unfold value_from_command_text. rewrite H1, H2, H3. reflexivity. Qed.

(* what is NOT a number although Go's ParseFloat accepts it *)
Example not_numbers : map value_from_command_text [STR "inf"; STR "NaN"; STR "1e3"; STR ".5"; STR "5."; STR "+5"; STR "0x10"; STR "-"]
  = map VStr [STR "inf"; STR "NaN"; STR "1e3"; STR ".5"; STR "5."; STR "+5"; STR "0x10"; STR "-"].
Proof. vm_compute. reflexivity. Qed.

Example numbers : map (fun w => match value_from_command_text w with VNum n => Some (to_bits n) | _ => None end)
                      [STR "3"; STR "-3"; STR "0.5"; STR "-12.25"; STR "007"]
  = map (fun z => Some (to_bits z)) [of_Z 3; fneg (of_Z 3); fdiv (of_Z 1) (of_Z 2); fneg (fdiv (of_Z 49) (of_Z 4)); of_Z 7].
Proof. vm_compute. reflexivity. Qed.

Definition no_space (w : str) : Prop := forallb (fun c => negb (is_space c)) w = true.
Definition all_space (s : str) : Prop := forallb is_space s = true.

(* the word being collected (held reversed), closed *)
Definition flush (cur : str) : list str := match cur with [] => [] | _ => [rev cur] end.

Lemma flush_word (w : str) : w <> [] -> flush (rev w ++ []) = [w].
Proof.
  intros Hw. rewrite app_nil_r. destruct (rev w) eqn:E.
  - apply (f_equal (@rev _)) in E. rewrite rev_involutive in E. contradiction.
  - unfold flush. rewrite <- E, rev_involutive. reflexivity.
Qed.

(* a run without spaces is pushed onto the current word *)
Lemma fields_word w cur rest_ : no_space w -> fields (w ++ rest_) cur = fields rest_ (rev w ++ cur).
Proof.
  revert cur. induction w as [|c w IH]; intros cur Hw; [reflexivity|].
  apply andb_true_iff in Hw as [Hc%negb_true_iff Hw]. cbn [app fields]. rewrite Hc, (IH _ Hw).
  cbn [rev]. rewrite <- app_assoc. reflexivity.
Qed.

(* a run of spaces closes the current word; an empty run does so only at the end of the text *)
Lemma fields_space s cur rest_ : all_space s -> (s = [] -> rest_ = [] \/ cur = []) ->
  fields (s ++ rest_) cur = flush cur ++ fields rest_ [].
Proof.
  intros Hs Hne. destruct s as [|c s].
  - destruct (Hne eq_refl) as [-> | ->]; [destruct cur; reflexivity|reflexivity].
  - clear Hne. apply andb_true_iff in Hs as [H1 H2]. cbn [app fields]. rewrite H1.
    assert (E : fields (s ++ rest_) [] = fields rest_ []).
    { clear c H1. induction s as [|c s IH]; [reflexivity|]. apply andb_true_iff in H2 as [H1 H2].
      cbn [app fields]. rewrite H1. exact (IH H2). }
    rewrite E. destruct cur; reflexivity.
Qed.

(* words written with ANY non-empty whitespace between them (blanks, tabs, ...), any whitespace
   before the first and after the last, are recovered exactly *)
Fixpoint join (ws : list str) (seps : list str) (trail : str) : str :=
  match ws with
  | [] => trail
  | [w] => w ++ trail
  | w :: ws' => match seps with
                | s :: seps' => w ++ s ++ join ws' seps' trail
                | [] => w ++ join ws' [] trail
                end
  end.

Theorem fields_join : forall ws seps lead trail,
  Forall (fun w => no_space w /\ w <> []) ws -> Forall (fun s => all_space s /\ s <> []) seps ->
  length seps = pred (length ws) -> all_space lead -> all_space trail ->
  fields (lead ++ join ws seps trail) [] = ws.
Proof.
  intros ws seps lead trail Hw Hs Hl Hlead Htrail. rewrite (fields_space lead [] _ Hlead) by auto.
  clear lead Hlead. cbn [flush app]. revert seps Hs Hl. induction Hw as [|w ws' [Hw1 Hw2] Hws IH]; intros seps Hs Hl.
  - cbn [join]. rewrite <- (app_nil_r trail), (fields_space trail [] [] Htrail) by auto. reflexivity.
  - destruct ws' as [|w2 ws''].
    + cbn [join].
      rewrite (fields_word w [] trail Hw1), <- (app_nil_r trail), (fields_space trail _ [] Htrail), (flush_word w Hw2) by auto.
      reflexivity.
    + destruct seps as [|s seps']; [discriminate|]. inversion Hs as [|? ? [Hs1 Hs2] Hs']; subst.
      cbn [join]. rewrite (fields_word w [] _ Hw1), (fields_space s _ _ Hs1), (flush_word w Hw2) by (intros ->; contradiction).
      cbn [app]. f_equal. apply IH; [exact Hs'|]. cbn in Hl |- *. lia.
Qed.

Theorem rearrange_text_tokens a b r acc :
  rearrange (RText a :: RText b :: r) acc = rearrange (RText (a ++ b) :: r) acc.
Proof. cbn [rearrange]. rewrite app_assoc. reflexivity. Qed.

Theorem rearrange_expr_in_place t e r :
  rearrange (RText t :: RExpr e :: r) [] = split_words t ++ e :: rearrange r [].
Proof. reflexivity. Qed.

Theorem rearrange_only_text t : rearrange [RText t] [] = split_words t.
Proof. reflexivity. Qed.

(* the arguments of  name sep w1 sep w2 ...  are name, w1, w2, ... each classified on its own *)
Theorem command_words ws seps lead trail :
  Forall (fun w => no_space w /\ w <> []) ws -> Forall (fun s => all_space s /\ s <> []) seps ->
  length seps = pred (length ws) -> all_space lead -> all_space trail ->
  rearrange [RText (lead ++ join ws seps trail)] [] = map (fun w => EVal (value_from_command_text w)) ws.
Proof.
  intros. cbn [rearrange app]. unfold split_words. rewrite fields_join by assumption. reflexivity.
Qed.
