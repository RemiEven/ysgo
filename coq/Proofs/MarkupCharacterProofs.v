(* C13: the implicit character attribute.  A line `Name: rest` without markup yields the text
   unchanged and one attribute "character" covering exactly the prefix - the name, the colon and
   the blanks after it - whose property "name" is the name. *)
From Coq Require Import List ZArith Lia Bool.
From YS Require Import Base.Sexp Yarn.Value Markup.LineParser Proofs.MarkupProofs Proofs.MarkupDocProofs.
Import ListNotations.

Definition no_colon (c : N) : bool := negb (N.eqb c 58).

Theorem character_prefix n t :
  forallb plain_rune n = true -> forallb no_colon n = true -> forallb plain_rune t = true ->
  no_edge_space (n ++ 58%N :: t) ->
  parse_markup (n ++ 58%N :: t) =
  Some (n ++ 58%N :: t,
        [{| aname := STR "character"; apos := 0; alen := Z.of_nat (S (length n) + count_re_space t); asrc := 0;
            aprops := [(STR "name", MStr (trim_space n))] |}]).
Proof.
  intros Hn Hc Ht [He1 He2].
  assert (Hp : forallb plain_rune (n ++ 58%N :: t) = true) by (rewrite forallb_app, Hn; exact Ht).
  rewrite (parse_markup_clean _ _ [] [] (run_plain_end _ 0 [] 0 [] 0%N Hp) eq_refl He1 He2 (Forall_nil _)).
  cbn [sort_attrs fold_right has_char existsb rev app]. rewrite (char_attr_prefix n t Hc). reflexivity.
Qed.

Lemma text_for_prefix T a k : apos a = 0%Z -> alen a = Z.of_nat k -> (0 < k <= length T)%nat ->
  text_for_attribute T a = Some (firstn k T).
Proof.
  intros Hp Hl Hk. rewrite text_for_attribute_range by (unfold range_ok; lia).
  rewrite Hp, Hl, Nat2Z.id. reflexivity.
Qed.

(* the range is exactly the prefix: TextForAttribute returns name, colon and the blanks after it *)
Corollary character_prefix_text n t a text attrs :
  forallb plain_rune n = true -> forallb no_colon n = true -> forallb plain_rune t = true ->
  no_edge_space (n ++ 58%N :: t) ->
  parse_markup (n ++ 58%N :: t) = Some (text, attrs) -> In a attrs ->
  text_for_attribute text a = Some (n ++ 58%N :: firstn (count_re_space t) t).
Proof.
  intros Hn Hc Ht He H Ha. rewrite (character_prefix n t Hn Hc Ht He) in H. inversion H; subst. clear H.
  destruct Ha as [<-|[]].
  pose proof (count_re_space_le t) as Hle.
  rewrite (text_for_prefix _ _ (S (length n) + count_re_space t)); [|reflexivity|reflexivity|rewrite app_length; cbn [length]; lia].
  f_equal. replace (S (length n) + count_re_space t)%nat with (length n + S (count_re_space t))%nat by lia.
  rewrite firstn_app_2. reflexivity.
Qed.

(* without the edge hypothesis: whatever blanks stand at either end of the line, the text comes back
   trimmed and the character attribute starts at 0 and ends where the prefix ends in the trimmed text
   (L leading blanks are cut from it; it never reaches beyond the trimmed text) *)
Theorem character_prefix_general n t :
  forallb plain_rune n = true -> forallb no_colon n = true -> forallb plain_rune t = true ->
  let T := n ++ 58%N :: t in
  let L := (Z.of_nat (length T) - Z.of_nat (length (trim_left T)))%Z in
  parse_markup T =
  Some (trim_space T,
        [{| aname := STR "character"; apos := 0;
            alen := Z.max 0 (Z.min (Z.of_nat (S (length n) + count_re_space t) - L) (Z.of_nat (length (trim_space T))));
            asrc := 0; aprops := [(STR "name", MStr (trim_space n))] |}]).
Proof.
  intros Hn Hc Ht T L.
  assert (Hp : forallb plain_rune T = true) by (unfold T; rewrite forallb_app, Hn; exact Ht).
  rewrite (plain_parse T Hp). unfold T at 3. rewrite (char_attr_prefix n t Hc). cbn [map].
  unfold adjust_to, clampz. cbn [aname apos alen asrc aprops]. fold T L.
  pose proof (trim_left_le T). do 3 f_equal. f_equal; lia.
Qed.

(* a document (plain text, escaped brackets, open / close / close-all markers) whose text is
   `name: rest`: the attributes of the closed markers exactly as in markup_document_roundtrip, followed
   by the character attribute over the prefix - unless a marker is itself called "character" *)
Local Open Scope Z_scope.

Theorem document_with_character_prefix its n t :
  Forall item_ok its ->
  text its = n ++ 58%N :: t -> forallb no_colon n = true ->
  no_edge_space (text its) ->
  (forall encl e, enclosed its [] [] = Some encl -> In e encl -> str_eqb (fst e) (STR "character") = false) ->
  match enclosed its [] [] with
  | Some encl =>
      exists attrs, parse_markup (render its) =
          Some (text its, attrs ++ [{| aname := STR "character"; apos := 0;
                                       alen := Z.of_nat (S (length n) + count_re_space t); asrc := 0;
                                       aprops := [(STR "name", MStr (trim_space n))] |}]) /\
        length attrs = length encl /\
        (forall e, In e encl -> exists a, In a attrs /\ aname a = fst e /\ aprops a = [] /\
                                          text_for_attribute (text its) a = Some (snd e)) /\
        (forall a, In a attrs -> exists e, In e encl /\ aname a = fst e /\ aprops a = [] /\
                                           text_for_attribute (text its) a = Some (snd e))
  | None => parse_markup (render its) = None
  end.
Proof.
  intros Hok HT Hcolon Hedge Hnochar. pose proof (document_parse its Hok Hedge) as H.
  destruct (enclosed its [] []) as [encl|]; [|exact H]. destruct H as (attrs0 & F & E).
  exists (sort_attrs attrs0).
  split; [|exact (sorted_matches _ (fun a e => P.reads_as (text its) a (eemb e)) _ _ (arel_reads_as _) F)].
  rewrite E, (has_char_names _ fst _ _ (fun a e H => proj1 H) F). do 3 f_equal.
  replace (existsb _ encl) with false; [rewrite HT; apply char_attr_prefix; exact Hcolon|].
  symmetry. apply not_true_is_false. intros Hc. apply existsb_exists in Hc as (e & He & Hn).
  rewrite (Hnochar encl e eq_refl He) in Hn. discriminate.
Qed.

(* an explicit marker called "character" suppresses the implicit attribute: whatever colons the text
   holds, the result is that of markup_document_roundtrip *)
Theorem explicit_character_marker its :
  Forall item_ok its ->
  no_edge_space (text its) ->
  (forall encl, enclosed its [] [] = Some encl -> exists e, In e encl /\ str_eqb (fst e) (STR "character") = true) ->
  match enclosed its [] [] with
  | Some encl =>
      exists attrs, parse_markup (render its) = Some (text its, attrs) /\
        length attrs = length encl /\
        (forall e, In e encl -> exists a, In a attrs /\ aname a = fst e /\ aprops a = [] /\
                                          text_for_attribute (text its) a = Some (snd e)) /\
        (forall a, In a attrs -> exists e, In e encl /\ aname a = fst e /\ aprops a = [] /\
                                           text_for_attribute (text its) a = Some (snd e))
  | None => parse_markup (render its) = None
  end.
Proof.
  intros Hok Hedge Hchar. pose proof (document_parse its Hok Hedge) as H.
  destruct (enclosed its [] []) as [encl|]; [|exact H]. destruct H as (attrs0 & F & E).
  exists (sort_attrs attrs0).
  split; [|exact (sorted_matches _ (fun a e => P.reads_as (text its) a (eemb e)) _ _ (arel_reads_as _) F)].
  destruct (Hchar encl eq_refl) as (e & He & Hn).
  rewrite E, (has_char_names _ fst _ _ (fun a e H => proj1 H) F).
  replace (existsb _ encl) with true; [apply f_equal, f_equal, app_nil_r|].
  symmetry. apply existsb_exists. exists e. auto.
Qed.
