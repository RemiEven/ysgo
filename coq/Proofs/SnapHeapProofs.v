(* C07 on the heap-explicit model (Yarn/SnapHeap.v): snapshots are self-contained.
   Invariant (every reachable configuration): no address is owned twice - by two runners, two
   snapshots, a runner and a snapshot, or twice by one object - and every owned address is
   allocated.  Frame: an operation of runner i writes only to objects owned by runner i (and to fresh
   ones); an edit of snapshot j by the host writes only to objects of snapshot j.  Together: nothing
   a runner does changes a snapshot or another runner, runners restored from the same snapshot do not
   influence one another, and a snapshot taken right after a restore equals the restored one. *)
From Coq Require Import List Arith Lia.
From YS Require Import Base.Sexp Yarn.Ast Yarn.Value Yarn.Runner Yarn.SnapHeap.
Import ListNotations.

Lemma hset_length h a o : length (hset h a o) = length h.
Proof. revert a; induction h as [|x h IH]; intros [|a]; cbn; auto. Qed.

Lemma hget_hset_other h a o b : a <> b -> hget (hset h a o) b = hget h b.
Proof.
  unfold hget. revert a b; induction h as [|x h IH]; intros [|a] [|b] H; cbn; auto; congruence.
  all: try (apply IH; congruence).
Qed.

Lemma hget_hset_same h a o : a < length h -> hget (hset h a o) a = Some o.
Proof. unfold hget. revert a; induction h as [|x h IH]; intros [|a] H; cbn in *; try lia; auto. apply IH. lia. Qed.

Lemma hget_alloc_old h o b : b < length h -> hget (h ++ [o]) b = hget h b.
Proof. intros H. unfold hget. apply nth_error_app1. exact H. Qed.

Lemma hget_alloc_new h o : hget (h ++ [o]) (length h) = Some o.
Proof. unfold hget. rewrite nth_error_app2 by lia. rewrite Nat.sub_diag. reflexivity. Qed.

Definition cnt (l : list nat) (a : nat) : nat := count_occ Nat.eq_dec l a.

Lemma cnt_app l l' a : cnt (l ++ l') a = cnt l a + cnt l' a.
Proof. apply count_occ_app. Qed.

Lemma cnt_cons x l a : cnt (x :: l) a = (if Nat.eq_dec x a then 1 else 0) + cnt l a.
Proof. unfold cnt. cbn. destruct (Nat.eq_dec x a); reflexivity. Qed.

Lemma cnt_nil a : cnt [] a = 0.
Proof. reflexivity. Qed.

Lemma cnt_pos_in l a : 0 < cnt l a <-> In a l.
Proof. unfold cnt. split; intros H; [apply (count_occ_In Nat.eq_dec); lia|apply (count_occ_In Nat.eq_dec) in H; lia]. Qed.

Definition owned_r (r : hrunner) : list nat := [r_store r; r_visits r; r_vsnap r].
Definition owned_s (s : hsnap) : list nat := [s_vars s; s_visits s].
Definition owned_rs (l : list hrunner) : list nat := concat (map owned_r l).
Definition owned_ss (l : list hsnap) : list nat := concat (map owned_s l).
Definition all_owned (c : config) : list nat := owned_rs (runners c) ++ owned_ss (snaps c).

Definition Inv (c : config) : Prop :=
  forall a, cnt (all_owned c) a <= 1 /\ (0 < cnt (all_owned c) a -> a < length (hp c)).

Lemma owned_rs_app l l' : owned_rs (l ++ l') = owned_rs l ++ owned_rs l'.
Proof. unfold owned_rs. rewrite map_app, concat_app. reflexivity. Qed.
Lemma owned_ss_app l l' : owned_ss (l ++ l') = owned_ss l ++ owned_ss l'.
Proof. unfold owned_ss. rewrite map_app, concat_app. reflexivity. Qed.
Lemma owned_rs_cons r l : owned_rs (r :: l) = owned_r r ++ owned_rs l.
Proof. reflexivity. Qed.
Lemma owned_ss_cons s l : owned_ss (s :: l) = owned_s s ++ owned_ss l.
Proof. reflexivity. Qed.

Lemma set_runner_split l i r0 : nth_error l i = Some r0 ->
  exists l1 l2, l = l1 ++ r0 :: l2 /\ length l1 = i /\ forall r, set_runner l i r = l1 ++ r :: l2.
Proof.
  intros H. destruct (nth_error_split l i H) as (l1 & l2 & -> & Hl). exists l1, l2. repeat split; [exact Hl|].
  intros r. unfold set_runner. subst i. f_equal.
  - rewrite firstn_app, Nat.sub_diag, firstn_all. cbn. apply app_nil_r.
  - f_equal. change (l1 ++ r0 :: l2) with (l1 ++ [r0] ++ l2). rewrite app_assoc.
    replace (S (length l1)) with (length (l1 ++ [r0])) by (rewrite last_length; reflexivity).
    rewrite skipn_app, Nat.sub_diag, skipn_all. reflexivity.
Qed.

Lemma inv_init : Inv init_config.
Proof. intros a. cbn. split; [lia|intros H; cbn in H; lia]. Qed.

(* an operation that allocates k objects: the heap grows by k and no address is owned more often
   than before, except that each of the k new ones may be owned once *)
Lemma inv_alloc c c' k : Inv c -> length (hp c') = length (hp c) + k ->
  (forall a, cnt (all_owned c') a <= cnt (all_owned c) a + cnt (seq (length (hp c)) k) a) -> Inv c'.
Proof.
  intros Hinv L H a. specialize (H a). destruct (Hinv a) as [I1 I2]. rewrite L.
  pose proof (proj1 (NoDup_count_occ Nat.eq_dec _) (seq_NoDup k (length (hp c))) a) as N. fold (cnt (seq (length (hp c)) k) a) in N.
  destruct (Nat.lt_ge_cases a (length (hp c))) as [Lt|Ge].
  - (* an old address: not among the new ones *)
    assert (Z : cnt (seq (length (hp c)) k) a = 0) by (apply count_occ_not_In; rewrite in_seq; lia).
    split; lia.
  - (* not allocated before, hence not owned before; owned now only if it is one of the new ones *)
    assert (Z : cnt (all_owned c) a = 0) by (destruct (cnt (all_owned c) a); [reflexivity|]; assert (a < length (hp c)) by (apply I2; lia); lia).
    split; [lia|]. intros P. assert (In a (seq (length (hp c)) k)) by (apply cnt_pos_in; lia). rewrite in_seq in *. lia.
Qed.

Definition actor (o : op) : option nat :=
  match o with OSet i _ _ | OJump i _ _ | OSnapshot i | ORestore i _ => Some i | _ => None end.
Definition edited (o : op) : option nat :=
  match o with OEditVars j _ | OEditVisits j _ => Some j | _ => None end.

(* who holds addresses: runner i or snapshot j *)
Inductive owner := Runner (i : nat) | Snap (j : nat).

Definition holds (c : config) (w : owner) (a : nat) : Prop :=
  match w with
  | Runner i => exists r, nth_error (runners c) i = Some r /\ In a (owned_r r)
  | Snap j => exists s, nth_error (snaps c) j = Some s /\ In a (owned_s s)
  end.

Definition writer (o : op) : option owner :=
  match actor o, edited o with
  | Some i, _ => Some (Runner i)
  | None, Some j => Some (Snap j)
  | None, None => None
  end.

Lemma nth_set_runner_other l i r0 r k : nth_error l i = Some r0 -> k <> i ->
  nth_error (set_runner l i r) k = nth_error l k.
Proof.
  intros E N. destruct (set_runner_split l i r0 E) as (l1 & l2 & -> & Hl & Hs). rewrite Hs.
  destruct (Nat.lt_ge_cases k i) as [K|K].
  - rewrite !nth_error_app1 by lia. reflexivity.
  - rewrite !nth_error_app2 by lia. destruct (k - length l1) as [|d] eqn:D; [lia|]. reflexivity.
Qed.

Lemma nth_error_app_old {A} (l l' : list A) k x : nth_error l k = Some x -> nth_error (l ++ l') k = Some x.
Proof. intros H. rewrite nth_error_app1; [exact H|]. apply nth_error_Some. congruence. Qed.

(* everything the proofs below need to know about an operation o taking c to c' and allocating k
   objects: the heap grows by k; no address is owned more often than before, the k new ones at most
   once; allocated objects that the writer does not hold stay; snapshots stay; runners other than the
   actor stay *)
Record effect (c c' : config) (o : op) (k : nat) : Prop := {
  e_len : length (hp c') = length (hp c) + k;
  e_owned : forall a, cnt (all_owned c') a <= cnt (all_owned c) a + cnt (seq (length (hp c)) k) a;
  e_frame : forall b, b < length (hp c) -> (forall w, writer o = Some w -> ~ holds c w b) -> hget (hp c') b = hget (hp c) b;
  e_snaps : forall j s, nth_error (snaps c) j = Some s -> nth_error (snaps c') j = Some s;
  e_runners : forall i r, actor o <> Some i -> nth_error (runners c) i = Some r -> nth_error (runners c') i = Some r }.

Arguments e_len {c c' o k}.
Arguments e_owned {c c' o k}.
Arguments e_frame {c c' o k}.
Arguments e_snaps {c c' o k}.
Arguments e_runners {c c' o k}.

Lemma effect_none c o : effect c c o 0.
Proof. split; auto; intros; lia. Qed.

Lemma effect_hset c o w a x : writer o = Some w -> holds c w a ->
  effect c {| hp := hset (hp c) a x; runners := runners c; snaps := snaps c |} o 0.
Proof.
  intros W H. split; cbn [hp runners snaps]; auto.
  - rewrite hset_length. lia.
  - intros b. unfold all_owned. cbn [runners snaps]. lia.
  - intros b _ Nw. apply hget_hset_other. intros ->. exact (Nw w W H).
Qed.

(* in the four allocating cases: how often an address is owned afterwards, spelt out; lia takes the
   tests [if Nat.eq_dec x a then 1 else 0] as unknown naturals, which is all the inequality needs *)
Lemma step_effect c o : exists k, effect c (step c o) o k.
Proof.
  destruct o as [start|i x v|i t n|i|i j|j m|j m]; cbn [step].
  - exists 3. unfold op_new, alloc. split; cbn [hp runners snaps].
    + rewrite !last_length. lia.
    + intros a. unfold all_owned. cbn [runners snaps seq].
      rewrite owned_rs_app, owned_rs_cons, !cnt_app. unfold owned_r. cbn [r_store r_visits r_vsnap owned_rs map concat].
      rewrite !last_length, !cnt_cons, !cnt_nil. lia.
    + intros b Hb _. rewrite !hget_alloc_old; rewrite ?last_length; first [reflexivity|lia].
    + auto.
    + intros k r _ H. apply nth_error_app_old, H.
  - exists 0. unfold op_set. destruct (nth_error (runners c) i) as [r|] eqn:E; [|apply effect_none].
    apply (effect_hset c _ (Runner i)); [reflexivity|]. exists r. cbn. auto.
  - unfold op_jump. destruct (nth_error (runners c) i) as [r|] eqn:E; [|exists 0; apply effect_none].
    destruct (set_runner_split _ i r E) as (l1 & l2 & E1 & _ & E2). exists 1.
    set (h1 := if t then hset (hp c) (r_visits r) (OVisits (bump (visits_of (hp c) (r_visits r)) (r_cur r))) else hp c).
    assert (L : length h1 = length (hp c)) by (unfold h1; destruct t; [apply hset_length|reflexivity]).
    unfold alloc. split; cbn [hp runners snaps].
    + rewrite last_length, L. lia.
    + intros a. unfold all_owned. cbn [runners snaps seq]. rewrite E2, E1, L.
      rewrite !owned_rs_app, !owned_rs_cons, !cnt_app. unfold owned_r. cbn [r_store r_visits r_vsnap].
      rewrite !cnt_cons, !cnt_nil. lia.
    + intros b Hb Nw. rewrite hget_alloc_old by (rewrite L; exact Hb). unfold h1.
      destruct t; [apply hget_hset_other; intros <-; apply (Nw (Runner i) eq_refl); exists r; cbn; auto|reflexivity].
    + auto.
    + intros k r0 A H. cbn [actor] in A. rewrite (nth_set_runner_other _ _ _ _ _ E) by congruence. exact H.
  - unfold op_snapshot. destruct (nth_error (runners c) i) as [r|] eqn:E; [|exists 0; apply effect_none].
    exists 2. unfold alloc. split; cbn [hp runners snaps].
    + rewrite !last_length. lia.
    + intros a. unfold all_owned. cbn [runners snaps seq].
      rewrite owned_ss_app, owned_ss_cons, !cnt_app. unfold owned_s. cbn [s_vars s_visits owned_ss map concat].
      rewrite !last_length, !cnt_cons, !cnt_nil. lia.
    + intros b Hb _. rewrite !hget_alloc_old; rewrite ?last_length; first [reflexivity|lia].
    + intros k s H. apply nth_error_app_old, H.
    + auto.
  - unfold op_restore. destruct (nth_error (runners c) i) as [r|] eqn:E; [|exists 0; apply effect_none].
    destruct (nth_error (snaps c) j) as [s|] eqn:Es; [|exists 0; apply effect_none].
    destruct (set_runner_split _ i r E) as (l1 & l2 & E1 & _ & E2). exists 2. unfold alloc. split; cbn [hp runners snaps].
    + rewrite hset_length, !last_length. lia.
    + intros a. unfold all_owned. cbn [runners snaps seq]. rewrite E2, E1.
      rewrite !owned_rs_app, !owned_rs_cons, !cnt_app. unfold owned_r. cbn [r_store r_visits r_vsnap].
      rewrite !last_length, !cnt_cons, !cnt_nil. lia.
    + intros b Hb Nw. rewrite hget_hset_other by (intros <-; apply (Nw (Runner i) eq_refl); exists r; cbn; auto).
      rewrite !hget_alloc_old; rewrite ?last_length; first [reflexivity|lia].
    + auto.
    + intros k r0 A H. cbn [actor] in A. rewrite (nth_set_runner_other _ _ _ _ _ E) by congruence. exact H.
  - exists 0. unfold op_host_edit_vars. destruct (nth_error (snaps c) j) as [s|] eqn:E; [|apply effect_none].
    apply (effect_hset c _ (Snap j)); [reflexivity|]. exists s. cbn. auto.
  - exists 0. unfold op_host_edit_visits. destruct (nth_error (snaps c) j) as [s|] eqn:E; [|apply effect_none].
    apply (effect_hset c _ (Snap j)); [reflexivity|]. exists s. cbn. auto.
Qed.

Theorem inv_step c o : Inv c -> Inv (step c o).
Proof. intros Hinv. destruct (step_effect c o) as [k K]. exact (inv_alloc c _ k Hinv (e_len K) (e_owned K)). Qed.

Theorem inv_reachable ops : Inv (fold_left step ops init_config).
Proof.
  assert (G : forall c, Inv c -> Inv (fold_left step ops c)).
  { induction ops as [|o ops IH]; intros c Hinv; cbn; [exact Hinv|]. apply IH. apply inv_step. exact Hinv. }
  apply G. exact inv_init.
Qed.

(* owned_rs and owned_ss are both [concat (map f l)]: an entry's addresses count within the whole *)
Lemma cnt_concat_ge {A} (f : A -> list nat) l i x a : nth_error l i = Some x ->
  cnt (f x) a <= cnt (concat (map f l)) a.
Proof.
  revert i; induction l as [|y l IH]; intros [|i] H; cbn in H; try discriminate; cbn [map concat]; rewrite cnt_app.
  - injection H as ->. lia.
  - specialize (IH _ H). lia.
Qed.

Lemma cnt_concat_ge2 {A} (f : A -> list nat) l j k xj xk a : j <> k ->
  nth_error l j = Some xj -> nth_error l k = Some xk -> cnt (f xj) a + cnt (f xk) a <= cnt (concat (map f l)) a.
Proof.
  revert j k; induction l as [|y l IH]; intros [|j] [|k] N Hj Hk; cbn in Hj, Hk; try congruence;
    cbn [map concat]; rewrite cnt_app.
  - injection Hj as ->. pose proof (cnt_concat_ge f l k xk a Hk). lia.
  - injection Hk as ->. pose proof (cnt_concat_ge f l j xj a Hj). lia.
  - assert (j <> k) by congruence. pose proof (IH j k H Hj Hk). lia.
Qed.

Lemma cnt_in l a : In a l -> 1 <= cnt l a.
Proof. intros H. apply cnt_pos_in in H. lia. Qed.

(* no address is held by two owners, and what is held is allocated *)
Lemma holds_once c w w' a : Inv c -> holds c w a -> holds c w' a -> w = w'.
Proof.
  intros Hinv H H'. destruct (Hinv a) as [I1 _]. unfold all_owned, owned_rs, owned_ss in I1. rewrite cnt_app in I1.
  destruct w as [i|j], w' as [i'|j']; destruct H as (x & Hx & A%cnt_in), H' as (y & Hy & B%cnt_in).
  - destruct (Nat.eq_dec i i') as [->|N]; [reflexivity|]. pose proof (cnt_concat_ge2 owned_r _ _ _ _ _ a N Hx Hy). lia.
  - pose proof (cnt_concat_ge owned_r _ _ _ a Hx). pose proof (cnt_concat_ge owned_s _ _ _ a Hy). lia.
  - pose proof (cnt_concat_ge owned_s _ _ _ a Hx). pose proof (cnt_concat_ge owned_r _ _ _ a Hy). lia.
  - destruct (Nat.eq_dec j j') as [->|N]; [reflexivity|]. pose proof (cnt_concat_ge2 owned_s _ _ _ _ _ a N Hx Hy). lia.
Qed.

Lemma held_allocated c w a : Inv c -> holds c w a -> a < length (hp c).
Proof.
  intros Hinv H. destruct (Hinv a) as [_ I2]. apply I2. unfold all_owned, owned_rs, owned_ss. rewrite cnt_app.
  destruct w; destruct H as (x & Hx & A%cnt_in);
    [pose proof (cnt_concat_ge owned_r _ _ _ a Hx)|pose proof (cnt_concat_ge owned_s _ _ _ a Hx)]; lia.
Qed.

(* the frame: a step leaves alone whatever an owner other than its writer holds *)
Lemma untouched c o w a : Inv c -> writer o <> Some w -> holds c w a -> hget (hp (step c o)) a = hget (hp c) a.
Proof.
  intros Hinv N H. destruct (step_effect c o) as [n K]. apply (e_frame K); [exact (held_allocated c w a Hinv H)|].
  intros w' E H'. apply N. rewrite E, (holds_once c w' w a Hinv H' H). reflexivity.
Qed.

Theorem snapshot_self_contained c o k s :
  Inv c -> nth_error (snaps c) k = Some s -> edited o <> Some k ->
  nth_error (snaps (step c o)) k = Some s /\ snap_content (step c o) s = snap_content c s.
Proof.
  intros Hinv Hs Ne. destruct (step_effect c o) as [n K]. split; [exact (e_snaps K _ _ Hs)|].
  assert (F : forall a, In a (owned_s s) -> hget (hp (step c o)) a = hget (hp c) a).
  { intros a A. apply (untouched c o (Snap k)); [exact Hinv|destruct o; cbn in *; congruence|exists s; auto]. }
  unfold snap_content, vars_of, visits_of.
  rewrite (F (s_vars s)) by (cbn; auto). rewrite (F (s_visits s)) by (cbn; auto). reflexivity.
Qed.

Theorem runner_unaffected_by_others c o k r :
  Inv c -> nth_error (runners c) k = Some r -> actor o <> Some k ->
  nth_error (runners (step c o)) k = Some r /\ runner_view (step c o) r = runner_view c r.
Proof.
  intros Hinv Hr Na. destruct (step_effect c o) as [n K]. split; [exact (e_runners K _ _ Na Hr)|].
  assert (F : forall a, In a (owned_r r) -> hget (hp (step c o)) a = hget (hp c) a).
  { intros a A. apply (untouched c o (Runner k)); [exact Hinv|destruct o; cbn in *; congruence|exists r; auto]. }
  unfold runner_view, store_of, vars_of, visits_of.
  rewrite (F (r_store r)) by (cbn; auto). rewrite (F (r_visits r)) by (cbn; auto). rewrite (F (r_vsnap r)) by (cbn; auto).
  reflexivity.
Qed.

(* over whole histories: what each permitted step leaves in place and unchanged, under the invariant,
   any sequence of them does *)
Lemma steps_keep {T} (ok : op -> Prop) (here : config -> Prop) (view : config -> T) :
  (forall c o, Inv c -> here c -> ok o -> here (step c o) /\ view (step c o) = view c) ->
  forall ops c, Inv c -> here c -> Forall ok ops ->
  here (fold_left step ops c) /\ view (fold_left step ops c) = view c.
Proof.
  intros H. induction ops as [|o ops IH]; intros c Hinv Hc Hf; cbn [fold_left]; [auto|].
  inversion Hf as [|? ? Ho Hrest]; subst. destruct (H c o Hinv Hc Ho) as [H1 H2].
  destruct (IH (step c o) (inv_step c o Hinv) H1 Hrest) as [H3 H4]. split; [exact H3|congruence].
Qed.

Theorem snapshot_never_changes ops : forall c k s,
  Inv c -> nth_error (snaps c) k = Some s -> Forall (fun o => edited o <> Some k) ops ->
  nth_error (snaps (fold_left step ops c)) k = Some s /\ snap_content (fold_left step ops c) s = snap_content c s.
Proof.
  intros c k s. apply (steps_keep _ (fun c => nth_error (snaps c) k = Some s) (fun c => snap_content c s)).
  intros c0 o. apply snapshot_self_contained.
Qed.

Theorem runner_never_changed_by_others ops : forall c k r,
  Inv c -> nth_error (runners c) k = Some r -> Forall (fun o => actor o <> Some k) ops ->
  nth_error (runners (fold_left step ops c)) k = Some r /\ runner_view (fold_left step ops c) r = runner_view c r.
Proof.
  intros c k r. apply (steps_keep _ (fun c => nth_error (runners c) k = Some r) (fun c => runner_view c r)).
  intros c0 o. apply runner_unaffected_by_others.
Qed.

Lemma nth_set_runner_same l i r0 r : nth_error l i = Some r0 -> nth_error (set_runner l i r) i = Some r.
Proof.
  intros E. destruct (set_runner_split l i r0 E) as (l1 & l2 & -> & Hl & Hs). rewrite Hs.
  rewrite nth_error_app2 by lia. rewrite Hl, Nat.sub_diag. reflexivity.
Qed.

Lemma vars_of_alloc h o a : a < length h -> vars_of (h ++ [o]) a = vars_of h a.
Proof. intros H. unfold vars_of. rewrite hget_alloc_old by exact H. reflexivity. Qed.

Lemma visits_of_alloc h o a : a < length h -> visits_of (h ++ [o]) a = visits_of h a.
Proof. intros H. unfold visits_of. rewrite hget_alloc_old by exact H. reflexivity. Qed.

(* RestoreAt gives the runner exactly the contents of the snapshot (the same expressions as
   Runner.restore_at of the value-based model), whatever state the runner was in *)
Theorem restore_installs_snapshot c i j r s :
  Inv c -> nth_error (runners c) i = Some r -> nth_error (snaps c) j = Some s ->
  exists r', nth_error (runners (op_restore c i j)) i = Some r' /\
    runner_view (op_restore c i j) r' =
      {| rc_store := fold_left (fun st kv => st_set st (fst kv) (snd kv)) (svars (snap_content c s)) empty_store;
         rc_visits := svisits (snap_content c s); rc_vsnap := svars (snap_content c s); rc_cur := snode (snap_content c s) |}.
Proof.
  intros Hinv Hr Hs. unfold op_restore. rewrite Hr, Hs. unfold alloc. cbn [hp runners snaps].
  eexists. split; [apply (nth_set_runner_same _ _ _ _ Hr)|].
  assert (A1 : s_vars s < length (hp c)) by (apply (held_allocated c (Snap j) _ Hinv); exists s; cbn; auto).
  assert (A3 : r_store r < length (hp c)) by (apply (held_allocated c (Runner i) _ Hinv); exists r; cbn; auto).
  unfold runner_view, snap_content. cbn [r_store r_visits r_vsnap r_cur hp svars svisits snode].
  rewrite !vars_of_alloc by (rewrite ?last_length; lia).
  (* the storer was written in place; the two new maps sit at the two new addresses *)
  f_equal.
  - unfold store_of. rewrite hget_hset_same by (rewrite !last_length; lia). reflexivity.
  - unfold visits_of. rewrite hget_hset_other, hget_alloc_old, hget_alloc_new by (rewrite ?last_length; lia). reflexivity.
  - unfold vars_of at 1. rewrite hget_hset_other, hget_alloc_new by (rewrite ?last_length; lia). reflexivity.
Qed.

Theorem snapshot_after_restore_equals c i j r s :
  Inv c -> nth_error (runners c) i = Some r -> nth_error (snaps c) j = Some s ->
  let c' := op_snapshot (op_restore c i j) i in
  exists s', nth_error (snaps c') (length (snaps c)) = Some s' /\ snap_content c' s' = snap_content c s.
Proof.
  intros Hinv Hr Hs c'.
  destruct (restore_installs_snapshot c i j r s Hinv Hr Hs) as (r' & Hr' & V).
  assert (A : r_visits r' < length (hp (op_restore c i j)))
    by (apply (held_allocated _ (Runner i) _ (inv_step c (ORestore i j) Hinv)); exists r'; cbn; auto).
  subst c'. unfold op_snapshot. rewrite Hr'. unfold alloc. cbn [hp runners snaps].
  assert (SN : snaps (op_restore c i j) = snaps c) by (unfold op_restore; rewrite Hr, Hs; reflexivity).
  eexists. split.
  - rewrite SN. rewrite nth_error_app2 by lia. rewrite Nat.sub_diag. reflexivity.
  - (* the new snapshot holds copies of what the runner's view shows, and that is the restored snapshot *)
    unfold snap_content. cbn [s_vars s_node s_visits hp svars snode svisits].
    unfold vars_of at 1. rewrite hget_alloc_old, hget_alloc_new by (rewrite last_length; lia).
    unfold visits_of at 1. rewrite hget_alloc_new. rewrite visits_of_alloc by exact A.
    pose proof (f_equal rc_vsnap V) as V1. pose proof (f_equal rc_visits V) as V2. pose proof (f_equal rc_cur V) as V3.
    cbn [runner_view rc_vsnap rc_visits rc_cur] in V1, V2, V3. rewrite V1, V2, V3. reflexivity.
Qed.

Corollary restored_runners_do_not_influence_one_another c i1 i2 j ops r2 :
  Inv c -> i1 <> i2 ->
  let c' := op_restore (op_restore c i1 j) i2 j in
  nth_error (runners c') i2 = Some r2 ->
  Forall (fun o => actor o <> Some i2) ops ->
  runner_view (fold_left step ops c') r2 = runner_view c' r2.
Proof.
  intros Hinv N c' H2 F.
  apply (runner_never_changed_by_others ops c' i2 r2); [|exact H2|exact F].
  apply (inv_step _ (ORestore i2 j)), (inv_step _ (ORestore i1 j)), Hinv.
Qed.

(* the defect D8, for contrast: a Snapshot() that hands out the runner's own maps *)
Definition op_snapshot_shared (c : config) (i : nat) : config :=
  match nth_error (runners c) i with
  | Some r => {| hp := hp c; runners := runners c;
                 snaps := snaps c ++ [{| s_vars := r_vsnap r; s_node := r_cur r; s_visits := r_visits r |}] |}
  | None => c
  end.

(* ... is not self-contained: the next tracked jump of the runner changes the snapshot's visit counts *)
Example shared_snapshot_is_not_self_contained :
  let c0 := op_snapshot_shared (op_new init_config (STR "A")) 0 in
  let c1 := step c0 (OJump 0 true (STR "B")) in
  exists s, nth_error (snaps c0) 0 = Some s /\ snap_content c1 s <> snap_content c0 s.
Proof. eexists. split; [reflexivity|]. vm_compute. discriminate. Qed.

(* non-vacuity of the theorems: a reachable configuration with two runners and a snapshot, on which
   further operations of both runners leave the snapshot as it was *)
Example self_contained_example :
  let ops1 := [ONew (STR "A"); ONew (STR "A"); OSet 0 (STR "x") (VBool true); OJump 0 true (STR "B"); OSnapshot 0] in
  let ops2 := [OSet 0 (STR "x") (VBool false); OJump 0 true (STR "A"); ORestore 1 0; OSet 1 (STR "y") (VBool true);
               OJump 1 true (STR "B"); OSnapshot 1] in
  let c1 := fold_left step ops1 init_config in
  let c2 := fold_left step ops2 c1 in
  exists s, nth_error (snaps c1) 0 = Some s /\ nth_error (snaps c2) 0 = Some s /\
            snap_content c2 s = snap_content c1 s /\ svars (snap_content c1 s) = [(STR "x", VBool true)].
Proof. eexists. repeat split. Qed.
