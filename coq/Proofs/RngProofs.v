(* C09: rand.Intn(n) lies in [0, n), dice(n) is an integer in [1, n] (n as converted to int),
   random_range(a, b) an integer in [a, b] when the range fits an int, for every raw stream of the
   runner's source (the stream itself is an oracle: math/rand's generator). *)
From Coq Require Import List ZArith Bool Lia.
From YS Require Import Base.Sexp Num.F64 Yarn.Ast Yarn.Eval Yarn.RunnerWire.
Import ListNotations.
Local Open Scope Z_scope.

Lemma land_bounds v m : 0 <= m -> 0 <= Z.land v m <= m.
Proof.
  (* m = ldiff m v + land m v: the two have no bit in common and their union is m; ldiff m v >= 0 *)
  intros Hm. split; [apply Z.land_nonneg; right; exact Hm|].
  assert (H : Z.lor (Z.ldiff m v) (Z.land m v) = m) by apply Z.lor_ldiff_and.
  assert (D : Z.land (Z.ldiff m v) (Z.land m v) = 0).
  { apply Z.bits_inj'. intros n Hn. rewrite !Z.land_spec, Z.ldiff_spec, Z.bits_0.
    destruct (Z.testbit m n), (Z.testbit v n); reflexivity. }
  rewrite <- Z.lxor_lor, <- Z.add_nocarry_lxor in H by exact D.
  assert (0 <= Z.ldiff m v) by (apply Z.ldiff_nonneg; left; exact Hm).
  rewrite (Z.land_comm v m). lia.
Qed.

Lemma int31n_loop_range fuel : forall n mx e, 0 < n -> 0 <= fst (int31n_loop fuel n mx e) < n.
Proof.
  induction fuel as [|f IH]; intros n mx e Hn; cbn [int31n_loop]; destruct (draw e) as [v63 e1].
  - cbn [fst]. apply Z.mod_pos_bound. exact Hn.
  - destruct (mx <? v63 / 2 ^ 32); [apply IH; exact Hn|cbn [fst]; apply Z.mod_pos_bound; exact Hn].
Qed.

Lemma int63n_loop_range fuel : forall n mx e, 0 < n -> 0 <= fst (int63n_loop fuel n mx e) < n.
Proof.
  induction fuel as [|f IH]; intros n mx e Hn; cbn [int63n_loop]; destruct (draw e) as [v e1].
  - cbn [fst]. apply Z.mod_pos_bound. exact Hn.
  - destruct (mx <? v); [apply IH; exact Hn|cbn [fst]; apply Z.mod_pos_bound; exact Hn].
Qed.

Theorem intn_range n e : 0 < n -> 0 <= fst (intn n e) < n.
Proof.
  intros Hn. unfold intn. destruct (n <=? 2 ^ 31 - 1).
  - destruct (is_pow2 n).
    + destruct (draw e) as [v63 e1]. cbn [fst]. pose proof (land_bounds (v63 / 2 ^ 32) (n - 1)). lia.
    + apply int31n_loop_range. exact Hn.
  - destruct (is_pow2 n).
    + destruct (draw e) as [v e1]. cbn [fst]. pose proof (land_bounds v (n - 1)). lia.
    + apply int63n_loop_range. exact Hn.
Qed.

Local Arguments Z.add : simpl never.
Local Arguments Z.sub : simpl never.
Local Arguments Z.mul : simpl never.
Local Arguments Z.ltb : simpl never.
Local Arguments Z.leb : simpl never.
Local Arguments wrap64 : simpl never.
Local Arguments to_int64 : simpl never.
Local Arguments intn : simpl never.
Local Arguments of_Z : simpl never.

Lemma to_int64_range x : - two63 <= to_int64 x < two63.
Proof.
  unfold to_int64, two63. destruct x; try lia.
  match goal with |- context [if ?c then _ else _] => destruct c eqn:E end; [|lia].
  apply andb_true_iff in E as [E1 E2]. apply Z.leb_le in E1. apply Z.ltb_lt in E2. unfold two63 in *. lia.
Qed.

(* two's complement: wrap64 z is the representative of z modulo 2^64 in [-2^63, 2^63) *)
Lemma wrap64_spec z : exists k, wrap64 z = z + k * two64 /\ - two63 <= wrap64 z < two63.
Proof.
  unfold wrap64. exists (- ((z + two63) / two64)).
  pose proof (Z.div_mod (z + two63) two64 ltac:(discriminate)).
  pose proof (Z.mod_pos_bound (z + two63) two64 ltac:(reflexivity)).
  assert (two64 = 2 * two63) by reflexivity. lia.
Qed.

Lemma wrap64_small z : - two63 <= z < two63 -> wrap64 z = z.
Proof. destruct (wrap64_spec z) as (k & E & R). unfold two63, two64 in *. lia. Qed.

(* rng.IntBetween(lo, hi) = lo + Intn(hi - lo + 1) in int64 arithmetic: when the width hi - lo + 1 fits an
   int nothing wraps, and the result lies between lo and hi *)
Lemma int_between_range lo hi e : - two63 <= lo <= hi -> hi < two63 -> hi - lo + 1 < two63 ->
  let n := wrap64 (wrap64 (hi - lo) + 1) in
  0 < n /\ lo <= wrap64 (lo + fst (intn n e)) <= hi.
Proof.
  intros Hlo Hhi Hfit. cbv zeta.
  rewrite (wrap64_small (hi - lo)), (wrap64_small (hi - lo + 1)) by (unfold two63 in *; lia).
  pose proof (intn_range (hi - lo + 1) e ltac:(lia)). rewrite wrap64_small by (unfold two63 in *; lia). lia.
Qed.

Theorem dice_range v x e : 1 <= to_int64 x ->
  exists r e', call_builtin v (STR "dice") [VNum x] e = Some (Val (Some (VNum (of_Z r))), e') /\
               1 <= r <= to_int64 x.
Proof.
  intros H. pose proof (to_int64_range x) as Hr. cbn.
  destruct (Z.ltb_spec (to_int64 x) 1); [lia|].
  destruct (int_between_range 1 (to_int64 x) e) as [_ Hi]; [unfold two63 in *; lia..|].
  rewrite (wrap64_small (to_int64 x - 1)) in Hi by lia.
  destruct (intn _ e) as [r e1]. eexists _, e1. split; [reflexivity|exact Hi].
Qed.

Theorem random_range_range v a b e :
  to_int64 a <= to_int64 b -> to_int64 b - to_int64 a + 1 < two63 ->
  exists r e', call_builtin v (STR "random_range") [VNum a; VNum b] e = Some (Val (Some (VNum (of_Z r))), e') /\
               to_int64 a <= r <= to_int64 b.
Proof.
  intros Hle Hfit. pose proof (to_int64_range a) as Ha. pose proof (to_int64_range b) as Hb. cbn.
  destruct (int_between_range (to_int64 a) (to_int64 b) e) as [Hn Hi]; [lia..|].
  destruct (Z.ltb_spec (to_int64 b) (to_int64 a)); [lia|].
  destruct (Z.leb_spec (wrap64 (wrap64 (to_int64 b - to_int64 a) + 1)) 0); [lia|].
  destruct (intn _ e) as [r e1]. eexists _, e1. split; [reflexivity|exact Hi].
Qed.

Theorem random_range_too_wide_is_error v a b e :
  to_int64 a <= to_int64 b -> two63 <= to_int64 b - to_int64 a + 1 ->
  call_builtin v (STR "random_range") [VNum a; VNum b] e = Some (Fail, e).
Proof.
  intros Hle Hw. pose proof (to_int64_range a) as Ha. pose proof (to_int64_range b) as Hb. cbn.
  destruct (Z.ltb_spec (to_int64 b) (to_int64 a)); [lia|].
  (* hi - lo + 1 computed in int64 is not positive *)
  destruct (wrap64_spec (to_int64 b - to_int64 a)) as (k & E & R).
  destruct (wrap64_spec (wrap64 (to_int64 b - to_int64 a) + 1)) as (k' & E' & R').
  destruct (Z.leb_spec (wrap64 (wrap64 (to_int64 b - to_int64 a) + 1)) 0); [reflexivity|].
  unfold two63, two64 in *. lia.
Qed.

(* the seed: base 36 over [0-9a-z], anything else is rejected *)
Theorem seed_alphabet s acc : (forall c, In c s -> ((48 <=? c) && (c <=? 57) || (97 <=? c) && (c <=? 122))%N = true) ->
  seed_to_int64 s acc <> None.
Proof.
  revert acc. induction s as [|c r IH]; intros acc H; [discriminate|].
  cbn [seed_to_int64].
  pose proof (H c (or_introl eq_refl)) as Hc.
  destruct ((48 <=? c)%N && (c <=? 57)%N) eqn:E1.
  - apply IH. intros c' Hc'. apply H. right. exact Hc'.
  - cbn [orb] in Hc. rewrite Hc. apply IH. intros c' Hc'. apply H. right. exact Hc'.
Qed.
