(* The runner's continuation stack machine (Yarn/Runner.v: next) refines the flat-continuation
   semantics (Spec/FlowSpec.v: snext), for every dialogue, state, choice and fuel; the end of the
   dialogue is absorbing; the argument of Next is irrelevant unless an option group is waiting. *)
From Coq Require Import List NArith.
From YS Require Import Yarn.Ast Yarn.Runner Spec.FlowSpec Proofs.RunnerInv Proofs.StepProofs.
Import ListNotations.

Lemma render_options_pending os : forall s, pending (snd (render_options s os)) = pending s.
Proof. intros s. destruct (render_options_ok os s) as [_ E]. rewrite E. reflexivity. Qed.

Definition sapply (d : dialogue) (f : nat) (q : list stmt) (a : ctl * dstate) : nres * sstate :=
  let (c, s) := a in
  match c with
  | Yield r lo => (r, smk q lo s)
  | Cont None => srun d f s q
  | Cont (Some b) => srun d f s (b ++ q)
  | Goto b => srun d f s b
  | Halt => (NEnd, smk [] None s)
  end.

Lemma srun_S d f s st q : srun d (S f) s (st :: q) = sapply d f q (exec_stmt d st s).
Proof.
  cbn [srun]. destruct st as [l|os|x op e|e|cs|es|fn args|x e]; cbn [exec_stmt].
  - destruct (render_line s l) as [[rl| |] s3]; reflexivity.
  - destruct (render_options s os) as [[ros| |] s3]; reflexivity.
  - destruct (exec_set x op e s) as [[|] s3]; reflexivity.
  - destruct (exec_jump d e s) as [[b'|] s3]; reflexivity.
  - destruct (exec_if cs s) as [[[b'|]| |] s3]; reflexivity.
  - destruct (exec_command es s) as [[| | |] s3]; reflexivity.
  - destruct (exec_call fn args s) as [[|] s3]; reflexivity.
  - destruct (exec_set x SAssign e s) as [[|] s3]; reflexivity.
Qed.

Definition R (m : rstate) (s : sstate) : Prop :=
  concat (stack m) = k s /\ last_opts m = waiting s /\ dat m = sdat s.

Lemma R_mk st lo ds : R (mk st lo ds) (smk (concat st) lo ds).
Proof. repeat split. Qed.

Lemma chosen_none c : chosen_body None c = Some [].
Proof. reflexivity. Qed.

(* once the choice is consumed (or selects an empty body) the machine follows srun on the
   flattened stack *)
Lemma mnext_srun d : forall fm m c r m',
  pending (dat m) = None -> chosen_body (last_opts m) c = Some [] ->
  next d fm m c = (r, m') -> r <> NFuel ->
  exists fs s', srun d fs (dat m) (concat (stack m)) = (r, s') /\ R m' s'.
Proof.
  induction fm as [|fm IH]; intros m c r m' Hp Hc Hn Hr; [inversion Hn; congruence|].
  rewrite next_S in Hn. unfold next_step in Hn. rewrite (poll_none _ Hp), Hc in Hn. cbn [is_nil] in Hn.
  destruct m as [[|[|st q] rest] lo ds]; cbn [stack last_opts dat concat app resume] in *.
  - inversion Hn; subst. exists 1%nat. eexists. split; [reflexivity|apply R_mk].
  - (* an exhausted queue is popped: a stutter step *)
    exact (IH (mk rest lo ds) _ _ _ Hp Hc Hn Hr).
  - (* both machines act on the same answer of the statement; concat turns a push into ++ *)
    destruct (exec_stmt_spec d st ds) as (_ & _ & P). specialize (P Hp).
    assert (K : forall stk, next d fm (mk stk None (snd (exec_stmt d st ds))) c = (r, m') ->
                fst (exec_stmt d st ds) <> Yield NWait None ->
                exists fs s', srun d fs (snd (exec_stmt d st ds)) (concat stk) = (r, s') /\ R m' s').
    { intros stk H Hw. destruct P as [P|P]; [contradiction|]. exact (IH (mk stk None _) _ _ _ P eq_refl H Hr). }
    destruct (exec_stmt d st ds) as [[r0 lo0|[b|]|b|] s3] eqn:E; cbn [apply_ctl resume fst snd] in *.
    + inversion Hn; subst. exists 1%nat. eexists. rewrite srun_S, E. split; [reflexivity|apply R_mk].
    + destruct (K _ Hn) as (fs & s' & Hs & HR); [discriminate|].
      exists (S fs), s'. rewrite srun_S, E. split; [exact Hs|exact HR].
    + destruct (K _ Hn) as (fs & s' & Hs & HR); [discriminate|].
      exists (S fs), s'. rewrite srun_S, E. split; [exact Hs|exact HR].
    + destruct (K _ Hn) as (fs & s' & Hs & HR); [discriminate|].
      exists (S fs), s'. rewrite srun_S, E. cbn [concat] in Hs. rewrite app_nil_r in Hs. split; [exact Hs|exact HR].
    + inversion Hn; subst. exists 1%nat. eexists. rewrite srun_S, E. split; [reflexivity|apply R_mk].
Qed.

(* pushing a non-empty chosen body and then fetching from it forgets the option group: the state
   with the body already pushed and nothing waiting behaves identically *)
Lemma next_push_eq d fm m c b : b <> [] -> pending (dat m) = None ->
  chosen_body (last_opts m) c = Some b ->
  next d (S fm) m c = next d (S fm) (mk (b :: stack m) None (dat m)) c.
Proof.
  intros Hb Hp Hc. cbn [next]. cbn [dat stack last_opts mk]. rewrite (poll_none _ Hp), Hc.
  cbn [chosen_body is_nil]. destruct b as [|st q]; [contradiction|]. reflexivity.
Qed.

Theorem next_refines_flow d : forall fm m s c r m',
  R m s -> next d fm m c = (r, m') -> r <> NFuel ->
  exists fs s', snext d fs s c = (r, s') /\ R m' s'.
Proof.
  intros fm m s c r m' (Hk & Hl & Hd) Hn Hr.
  destruct fm as [|fm]; [inversion Hn; congruence|].
  unfold snext. rewrite <- Hd, <- Hl, <- Hk. rewrite next_poll in Hn.
  destruct (poll (dat m)) as [[r0|] s0] eqn:Ep.
  - (* still waiting for the command, or its error is surfaced *)
    inversion Hn; subst. exists 1%nat. eexists. split; [reflexivity|]. repeat split.
  - pose proof (poll_idem _ _ Ep) as Hp0.
    set (m0 := mk (stack m) (last_opts m) s0) in *.
    destruct (chosen_body (last_opts m) c) as [b|] eqn:Ec.
    + destruct b as [|st q].
      * (* no option group waiting, or an empty body: nothing is pushed *)
        exact (mnext_srun d (S fm) m0 c r m' Hp0 Ec Hn Hr).
      * (* the chosen body is pushed and the first statement is fetched from it *)
        rewrite (next_push_eq d fm m0 c (st :: q)) in Hn; [|discriminate|exact Hp0|exact Ec].
        exact (mnext_srun d (S fm) (mk ((st :: q) :: stack m0) None (dat m0)) c r m' Hp0 (chosen_none c) Hn Hr).
    + (* choice out of range: Go panics on the index *)
      rewrite next_S in Hn. unfold next_step, m0 in Hn. cbn [dat stack last_opts mk] in Hn.
      rewrite (poll_none s0 Hp0), Ec in Hn. inversion Hn; subst.
      exists 1%nat. eexists. split; [reflexivity|]. repeat split.
Qed.

Lemma step_more_opts d m c m' : last_opts m = None -> next_step d m c = More m' -> last_opts m' = None.
Proof.
  intros Hl. unfold next_step. destruct (poll (dat m)) as [[r|] s0]; [discriminate|].
  destruct (chosen_body (last_opts m) c) as [b|]; [|discriminate].
  destruct (if is_nil b then stack m else b :: stack m) as [|[|st q] rest];
    [discriminate|intros H; inversion H; exact Hl|].
  destruct (exec_stmt d st s0) as [[r lo|[b'|]|b'|] s3]; cbn [apply_ctl]; intros H; inversion H; reflexivity.
Qed.

Theorem next_choice_irrelevant d fm m c1 c2 : last_opts m = None ->
  next d fm m c1 = next d fm m c2.
Proof.
  revert m. induction fm as [|fm IH]; intros m Hl; [reflexivity|]. rewrite !next_S.
  replace (next_step d m c2) with (next_step d m c1) by (unfold next_step; rewrite Hl; reflexivity).
  pose proof (step_more_opts d m c1) as K. destruct (next_step d m c1); [reflexivity|].
  exact (IH _ (K _ Hl eq_refl)).
Qed.

Definition ended (m : rstate) : Prop :=
  stack m = [] /\ last_opts m = None /\ pending (dat m) = None.

Lemma next_end_state d : forall fm m c m', next d fm m c = (NEnd, m') -> ended m'.
Proof.
  intros fm m c m' H.
  refine (next_inv d c (fun _ => True) (fun r m' => r = NEnd -> ended m') _ _ fm m _ m' I H eq_refl);
    [discriminate|]. clear. intros m _. unfold next_step.
  destruct (poll (dat m)) as [[r|] s0] eqn:Ep; [destruct (poll_answer _ _ _ Ep); subst; discriminate|].
  pose proof (poll_idem _ _ Ep) as Hp.
  destruct (chosen_body (last_opts m) c) as [b|]; [|discriminate].
  destruct (if is_nil b then stack m else b :: stack m) as [|[|st q] rest]; [repeat split; exact Hp|exact I|].
  destruct (exec_stmt_spec d st s0) as (_ & K & P). specialize (P Hp).
  destruct (exec_stmt d st s0) as [[r lo|[b'|]|b'|] s3]; cbn [apply_ctl fst snd] in *; try exact I.
  - intros ->. destruct K.
  - (* <<stop>> *) destruct P as [P|P]; [discriminate|]. repeat split; exact P.
Qed.

Lemma next_on_ended d fm m c : ended m -> next d (S fm) m c = (NEnd, m).
Proof.
  intros (Hs & Hl & Hp). destruct m as [stk lo ds]. cbn [stack last_opts dat] in *. subst.
  cbn [next]. cbn [dat stack last_opts]. rewrite (poll_none _ Hp). reflexivity.
Qed.

Theorem end_absorbing d fm m c m' : next d fm m c = (NEnd, m') ->
  forall fm' c', next d (S fm') m' c' = (NEnd, m').
Proof. intros H fm' c'. apply next_on_ended. apply (next_end_state d fm m c m' H). Qed.

Fixpoint iter_next (d : dialogue) (fuel : nat) (m : rstate) (cs : list Z) : list nres * rstate :=
  match cs with
  | [] => ([], m)
  | c :: r => let '(o, m1) := next d fuel m c in
              let '(os, m2) := iter_next d fuel m1 r in (o :: os, m2)
  end.

Theorem end_forever d fm m c m' : next d fm m c = (NEnd, m') ->
  forall fm' cs, iter_next d (S fm') m' cs = (map (fun _ => NEnd) cs, m').
Proof.
  intros H fm' cs. induction cs as [|c0 cs IH]; [reflexivity|].
  cbn [iter_next map]. rewrite (end_absorbing d fm m c m' H fm' c0), IH. reflexivity.
Qed.

Inductive sruns (d : dialogue) : sstate -> list Z -> list nres -> sstate -> Prop :=
| sruns_nil s : sruns d s [] [] s
| sruns_cons s c cs fs r s1 outs s2 :
    snext d fs s c = (r, s1) -> sruns d s1 cs outs s2 -> sruns d s (c :: cs) (r :: outs) s2.

Theorem run_refines_flow d fm : forall cs m s outs m',
  R m s -> iter_next d fm m cs = (outs, m') -> ~ In NFuel outs ->
  exists s', sruns d s cs outs s' /\ R m' s'.
Proof.
  induction cs as [|c cs IH]; intros m s outs m' HR Hi Hf.
  - cbn [iter_next] in Hi. inversion Hi; subst. exists s. split; [constructor|exact HR].
  - cbn [iter_next] in Hi. destruct (next d fm m c) as [o m1] eqn:En.
    destruct (iter_next d fm m1 cs) as [os m2] eqn:Ei. inversion Hi; subst.
    assert (Ho : o <> NFuel) by (intro E; apply Hf; left; exact E).
    destruct (next_refines_flow d fm m s c o m1 HR En Ho) as (fs & s1 & Hs & HR1).
    destruct (IH m1 s1 os m' HR1 Ei) as (s2 & Hr & HR2).
    { intro E. apply Hf. right. exact E. }
    exists s2. split; [econstructor; eassumption|exact HR2].
Qed.

Lemma R_new_runner d init stream sc cmds m :
  new_runner d init stream sc cmds = Some m ->
  exists s, sinit d (dat m) = Some s /\ R m s.
Proof.
  unfold new_runner, sinit. destruct d as [|n rest]; [discriminate|]. intros H. inversion H; subst.
  eexists. split; [reflexivity|]. unfold R, mk, smk. cbn. rewrite app_nil_r. auto.
Qed.
