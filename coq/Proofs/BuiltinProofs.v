(* C19: real-number contracts of the numeric built-ins (through Flocq's B2R), for every finite
   double; conversions. *)
From Coq Require Import Reals Lia Lra List.
From Flocq Require Import Core BinarySingleNaN.
From YS Require Import Base.Sexp Num.F64 Num.Decimal Yarn.Ast Yarn.Value Yarn.Eval Proofs.F64Facts.
Import ListNotations.
Local Open Scope R_scope.

Definition R_of (x : f64) : R := B2R x.

(* math.Floor / Ceil / Trunc / Round return the integer the corresponding real rounding gives *)
Lemma nearbyint_value md (x : f64) : R_of (Bnearbyint md x) = IZR (round_mode md (R_of x)).
Proof.
  unfold R_of. destruct (Bnearbyint_correct prec emax Hmax md x) as [H _]. rewrite H.
  apply round_FIX_IZR.
Qed.

Theorem floor_value x : R_of (ffloor x) = IZR (Zfloor (R_of x)).
Proof. apply (nearbyint_value mode_DN). Qed.
Theorem ceil_value x : R_of (fceil x) = IZR (Zceil (R_of x)).
Proof. apply (nearbyint_value mode_UP). Qed.
Theorem trunc_value x : R_of (ftrunc x) = IZR (Ztrunc (R_of x)).
Proof. apply (nearbyint_value mode_ZR). Qed.
Theorem round_value x : R_of (fround x) = IZR (ZnearestA (R_of x)).
Proof. apply (nearbyint_value mode_NA). Qed.

Lemma nearbyint_finite md (x : f64) : is_finite (Bnearbyint md x) = is_finite x.
Proof. destruct (Bnearbyint_correct prec emax Hmax md x) as [_ [H _]]. exact H. Qed.

Theorem floor_spec x : R_of (ffloor x) <= R_of x < R_of (ffloor x) + 1.
Proof. rewrite floor_value. split; [apply Zfloor_lb|apply Zfloor_ub]. Qed.

Theorem ceil_spec x : R_of (fceil x) - 1 < R_of x <= R_of (fceil x).
Proof.
  rewrite ceil_value. split; [|apply Zceil_ub].
  pose proof (Zceil_lb (R_of x)) as H. lra.
Qed.

Theorem integer_spec x :
  (0 <= R_of x -> R_of (ftrunc x) <= R_of x < R_of (ftrunc x) + 1) /\
  (R_of x <= 0 -> R_of (ftrunc x) - 1 < R_of x <= R_of (ftrunc x)).
Proof.
  rewrite trunc_value. split; intros H.
  - rewrite Ztrunc_floor, <- floor_value by exact H. apply floor_spec.
  - rewrite Ztrunc_ceil, <- ceil_value by exact H. apply ceil_spec.
Qed.

(* round(x) is an integer within 0.5 of x (half-way cases go away from zero: math.Round) *)
Theorem round_spec x : Rabs (R_of (fround x) - R_of x) <= / 2.
Proof. rewrite round_value, Rabs_minus_sym. apply Znearest_half. Qed.

Theorem rounding_results_are_integers x :
  exists a b c d : Z, R_of (ffloor x) = IZR a /\ R_of (fceil x) = IZR b /\ R_of (ftrunc x) = IZR c /\ R_of (fround x) = IZR d.
Proof.
  exists (Zfloor (R_of x)), (Zceil (R_of x)), (Ztrunc (R_of x)), (ZnearestA (R_of x)).
  repeat split; [apply floor_value|apply ceil_value|apply trunc_value|apply round_value].
Qed.

Theorem bool_string_roundtrip v b e :
  call_builtin v (STR "bool") [VStr (to_string (VBool b))] e = Some (Val (Some (VBool b)), e).
Proof. destruct b; reflexivity. Qed.

Theorem same_type_identity v e s n b :
  call_builtin v (STR "string") [VStr s] e = Some (Val (Some (VStr s)), e) /\
  call_builtin v (STR "number") [VNum n] e = Some (Val (Some (VNum n)), e) /\
  call_builtin v (STR "bool") [VBool b] e = Some (Val (Some (VBool b)), e).
Proof. repeat split; reflexivity. Qed.

Theorem bad_bool_string_is_error v s e : parse_bool s = None ->
  call_builtin v (STR "bool") [VStr s] e = Some (Fail, e).
Proof. intros H. cbn. rewrite H. reflexivity. Qed.

Theorem bad_number_string_is_error v s e : parse_float s = None ->
  call_builtin v (STR "number") [VStr s] e = Some (Fail, e).
Proof. intros H. cbn. rewrite H. reflexivity. Qed.

(* a rounding to an integer does not leave an integer bound: it is monotone and fixes the integers *)
Lemma Zrnd_abs_le md r k : Rabs r <= IZR k -> (Z.abs (round_mode md r) <= k)%Z.
Proof.
  intros [H1 H2]%Rabs_le_inv. rewrite <- opp_IZR in H1. pose proof (valid_rnd_round_mode md) as V.
  apply (Zrnd_le (round_mode md)) in H1, H2. rewrite Zrnd_IZR in H1, H2 by exact V. lia.
Qed.

(* math.Floor, Ceil, ... followed by the addition of y = 1 or -1: exact, since the integer reached
   stays below 2^53 *)
Lemma nearbyint_step md (x y : f64) (s : Z) :
  is_finite x = true -> is_finite y = true -> B2R y = IZR s -> (Z.abs s <= 1)%Z -> Rabs (B2R x) < IZR (2 ^ 52) ->
  B2R (fadd (Bnearbyint md x) y) = IZR (round_mode md (B2R x) + s).
Proof.
  intros Fx Fy Ey Hs Hb. pose proof (Zrnd_abs_le md _ _ (Rlt_le _ _ Hb)) as Hz.
  assert (Hi : (Z.abs (round_mode md (B2R x) + s) < 2 ^ 53)%Z) by lia.
  destruct (fadd_correct (Bnearbyint md x) y) as [E _]; [rewrite nearbyint_finite; exact Fx|exact Fy| |];
    change (B2R (Bnearbyint md x)) with (R_of (Bnearbyint md x)) in *;
    rewrite nearbyint_value, Ey, <- plus_IZR, rnd_exact in * by apply format_int, Hi.
  - apply int_lt_emax, Hi.
  - exact E.
Qed.

(* inc(x) = floor(x) + 1 exactly: the least integer greater than x *)
Theorem inc_spec x : is_finite x = true -> Rabs (R_of x) < IZR (2 ^ 52) ->
  R_of (f_inc x) = IZR (Zfloor (R_of x) + 1) /\ R_of x < R_of (f_inc x) <= R_of x + 1.
Proof.
  intros Fx Hb.
  assert (E : R_of (f_inc x) = IZR (Zfloor (R_of x) + 1)).
  { apply (nearbyint_step mode_DN x fone 1 Fx); [apply is_finite_Bone|apply Bone_correct|lia|exact Hb]. }
  split; [exact E|]. rewrite E, plus_IZR.
  pose proof (Zfloor_lb (R_of x)). pose proof (Zfloor_ub (R_of x)). lra.
Qed.

(* dec(x) = ceil(x) - 1 exactly: the greatest integer less than x *)
Theorem dec_spec x : is_finite x = true -> Rabs (R_of x) < IZR (2 ^ 52) ->
  R_of (f_dec x) = IZR (Zceil (R_of x) - 1) /\ R_of x - 1 <= R_of (f_dec x) < R_of x.
Proof.
  intros Fx Hb.
  assert (E : R_of (f_dec x) = IZR (Zceil (R_of x) - 1)).
  { (* Flocq's x - 1 is x + (-1) *)
    apply (nearbyint_step mode_UP x (fneg fone) (-1) Fx); [reflexivity| |lia|exact Hb].
    unfold fneg, fone. rewrite B2R_Bopp, Bone_correct. simpl. lra. }
  split; [exact E|]. rewrite E, minus_IZR.
  pose proof (Zceil_ub (R_of x)). pose proof (Zceil_lb (R_of x)). lra.
Qed.
