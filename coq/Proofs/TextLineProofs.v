(* C04 (lexing part): a literal text written with the printer's escapes is read back exactly,
   whatever its characters and wherever they stand in the line; tags are returned in order, without
   the '#', and never appear in the text; a trailing comment disappears. *)
From Coq Require Import List NArith Bool Lia.
From YS Require Import Base.Sexp Syntax.TextLine.
Import ListNotations.
Local Open Scope N_scope.

Definition no_newline (t : str) : Prop := forallb (fun c => negb ((c =? 13) || (c =? 10))) t = true.

Lemma special_escapable c : special c = true -> escapable c = true.
Proof.
  unfold special, escapable. intros H. repeat (apply orb_true_iff in H; destruct H as [H|H]);
    rewrite H; repeat rewrite orb_true_r; reflexivity.
Qed.

Lemma escapable_not_bracket c : escapable c = true -> (c =? 91) || (c =? 93) = false.
Proof.
  unfold escapable. intros H. destruct (c =? 91) eqn:E1; [apply N.eqb_eq in E1; subst c; discriminate H|].
  destruct (c =? 93) eqn:E2; [apply N.eqb_eq in E2; subst c; discriminate H|]. reflexivity.
Qed.

Definition next_is (r : str) (x : N) : bool := match r with e :: _ => e =? x | [] => false end.

(* a character that TextMode takes as it stands: not a line end, a backslash, '#' or '{', and not the
   first character of << or // *)
Definition plain (c : N) (r : str) : bool :=
  negb ((c =? 13) || (c =? 10) || (c =? 92) || (c =? 35) || (c =? 123)) &&
  negb ((c =? 60) && next_is r 60) && negb ((c =? 47) && next_is r 47).

Lemma lex_text_plain c r acc : plain c r = true -> lex_text (c :: r) acc = lex_text r (c :: acc).
Proof.
  unfold plain, next_is. intros H. apply andb_true_iff in H as [H H47]. apply andb_true_iff in H as [H H60].
  apply negb_true_iff in H, H60, H47. repeat (apply orb_false_iff in H; destruct H as [H ?]).
  cbn [lex_text]. repeat match goal with E : (c =? _) = false |- _ => rewrite E; clear E end.
  rewrite H60, H47. reflexivity.
Qed.

Lemma lex_text_escaped c r acc : escapable c = true -> lex_text (92 :: c :: r) acc = lex_text r (c :: acc).
Proof.
  intros H. cbn [lex_text]. change (92 =? 92) with true. cbv iota.
  rewrite (escapable_not_bracket c H), H. reflexivity.
Qed.

(* TEXT_ESCAPED_MARKUP_BRACKET keeps the backslash: the markup phase resolves it *)
Lemma lex_text_escaped_bracket c r acc : (c =? 91) || (c =? 93) = true ->
  lex_text (92 :: c :: r) acc = lex_text r (c :: 92 :: acc).
Proof. intros H. cbn [lex_text]. change (92 =? 92) with true. cbv iota. rewrite H. reflexivity. Qed.

Lemma special_plain c r : special c = false -> (c =? 13) || (c =? 10) = false -> plain c r = true.
Proof.
  unfold special, plain. intros Es Hn. repeat (apply orb_false_iff in Es; destruct Es as [Es ?]).
  apply orb_false_iff in Hn as [? ?].
  repeat match goal with E : (c =? _) = false |- _ => rewrite E; clear E end. reflexivity.
Qed.

Lemma lex_text_step c rest_ acc : (c =? 13) || (c =? 10) = false ->
  lex_text (esc1 c ++ rest_) acc = lex_text rest_ (c :: acc).
Proof.
  intros Hn. unfold esc1. destruct (special c) eqn:Es; cbn [app].
  - apply lex_text_escaped, special_escapable, Es.
  - apply lex_text_plain, special_plain; assumption.
Qed.

Lemma lex_text_escape t : forall rest_ acc, no_newline t ->
  lex_text (escape t ++ rest_) acc = lex_text rest_ (rev t ++ acc).
Proof.
  unfold escape. induction t as [|c t IH]; intros rest_ acc Hn; [reflexivity|].
  unfold no_newline in Hn. cbn [forallb] in Hn. apply andb_true_iff in Hn as [Hc Ht]. apply negb_true_iff in Hc.
  cbn [flat_map]. rewrite <- app_assoc. rewrite (lex_text_step c _ acc Hc).
  rewrite (IH rest_ (c :: acc) Ht). cbn [rev]. rewrite <- app_assoc. reflexivity.
Qed.

Definition good_tag (t : str) : Prop := t <> [] /\ forallb tag_char t = true.

Lemma take_tag_good t : forall rest_ acc, forallb tag_char t = true ->
  (match rest_ with c :: _ => tag_char c = false | [] => True end) ->
  take_tag (t ++ rest_) acc = (rev acc ++ t, rest_).
Proof.
  induction t as [|c t IH]; intros rest_ acc Ht Hr.
  - cbn [app]. destruct rest_ as [|c r]; cbn [take_tag]; [rewrite app_nil_r; reflexivity|].
    rewrite Hr. rewrite app_nil_r. reflexivity.
  - cbn [forallb] in Ht. apply andb_true_iff in Ht as [Hc Ht]. cbn [app take_tag]. rewrite Hc.
    rewrite (IH rest_ (c :: acc) Ht Hr). cbn [rev]. rewrite <- app_assoc. reflexivity.
Qed.

Lemma tag_char_not_ws c : tag_char c = true -> is_ws c = false.
Proof.
  unfold tag_char, is_ws. intros H. apply negb_true_iff in H.
  repeat (apply orb_false_iff in H; destruct H as [H ?]).
  repeat match goal with H : (_ =? _) = false |- _ => rewrite H; clear H end. reflexivity.
Qed.

Lemma skip_ws_good t rest_ : good_tag t -> skip_ws (t ++ rest_) = t ++ rest_.
Proof.
  intros [Hne Ht]. destruct t as [|c t]; [contradiction|]. cbn [forallb] in Ht.
  apply andb_true_iff in Ht as [Hc _]. cbn [app skip_ws]. rewrite (tag_char_not_ws c Hc). reflexivity.
Qed.

Lemma lex_tags_render : forall tags fuel t0 done_,
  good_tag t0 -> Forall good_tag tags -> (length tags < fuel)%nat ->
  lex_tags fuel (t0 ++ render_tags tags) done_ = Some (done_ ++ t0 :: tags).
Proof.
  induction tags as [|t1 tags IH]; intros fuel t0 done_ H0 Hts Hf.
  - destruct fuel; [lia|]. cbn [render_tags lex_tags]. rewrite app_nil_r.
    pose proof (skip_ws_good t0 [] H0) as Hs. rewrite app_nil_r in Hs. rewrite Hs.
    pose proof (take_tag_good t0 [] [] (proj2 H0) I) as Ht. rewrite app_nil_r in Ht. rewrite Ht. cbn [rev app].
    destruct t0 as [|c t0']; [destruct H0; contradiction|]. cbn [skip_ws]. reflexivity.
  - destruct fuel; [cbn in Hf; lia|]. inversion Hts as [|? ? H1 Hts']; subst.
    cbn [render_tags lex_tags]. rewrite (skip_ws_good t0 _ H0).
    rewrite (take_tag_good t0 (32 :: 35 :: t1 ++ render_tags tags) [] (proj2 H0)) by reflexivity.
    cbn [rev app]. destruct t0 as [|c t0']; [destruct H0; contradiction|].
    cbn [skip_ws]. change (is_ws 32) with true. cbn iota. cbn [skip_ws]. change (is_ws 35) with false. cbn iota.
    rewrite (IH fuel t1 (done_ ++ [c :: t0']) H1 Hts') by (cbn in Hf; lia).
    rewrite <- app_assoc. reflexivity.
Qed.

Lemma render_tags_length tags : (length tags <= length (render_tags tags))%nat.
Proof. induction tags as [|x l IH]; cbn [render_tags length]; [lia|]. rewrite app_length. lia. Qed.

(* TextMode, arriving at r with any text collected, ends the line with that text and these tags *)
Definition ends_line (r : str) (tags : list str) : Prop := forall acc, lex_text r acc = Some (rev acc, tags).

Lemma ends_line_nil : ends_line [] [].
Proof. intros acc. reflexivity. Qed.

Lemma ends_line_comment cm : ends_line (47 :: 47 :: cm) [].
Proof. intros acc. reflexivity. Qed.

Lemma ends_line_tags t0 tags : good_tag t0 -> Forall good_tag tags -> ends_line (35 :: t0 ++ render_tags tags) (t0 :: tags).
Proof.
  intros H0 Hts acc. cbn [lex_text]. change (35 =? 92) with false. change (35 =? 35) with true. cbv iota.
  rewrite (lex_tags_render tags _ t0 [] H0 Hts); [reflexivity|].
  rewrite app_length. pose proof (render_tags_length tags). lia.
Qed.

(* texts that can be the literal part of a line: something to show, no line break, and a first
   character that is not a blank (leading blanks are skipped by the lexer) and cannot start another
   kind of statement.  For simplicity every text starting with '-' or '=' is excluded here, although
   only "->" and "===" start something else; the correspondence family covers those. *)
Definition line_text_ok (t : str) : Prop :=
  no_newline t /\
  match t with
  | [] => False
  | c :: _ => is_ws c = false /\ (c =? 45) = false /\ (c =? 61) = false
  end.

Lemma lex_line_backslash e r : escapable e = true -> lex_line (92 :: e :: r) = lex_text r [e].
Proof.
  intros H. unfold lex_line. cbn [leading_ws skip_ws is_ws prefix_b N.eqb Pos.eqb orb andb]. rewrite H. reflexivity.
Qed.

Lemma prefix_b_2 a b c r : prefix_b [a; b] (c :: r) = (c =? a) && next_is r b.
Proof.
  cbn [prefix_b]. rewrite (N.eqb_sym a c). destruct r as [|y r]; [reflexivity|].
  cbn [next_is]. rewrite andb_true_r, (N.eqb_sym b y). reflexivity.
Qed.

(* the first character of a line, written as it is: BodyMode's tests on top of TextMode's *)
Lemma lex_line_plain c r : plain c r = true -> is_ws c = false -> (c =? 45) = false -> (c =? 61) = false ->
  lex_line (c :: r) = lex_text r [c].
Proof.
  unfold plain. intros H Hw H45 H61. apply andb_true_iff in H as [H H47]. apply andb_true_iff in H as [H H60].
  apply negb_true_iff in H, H60, H47. repeat (apply orb_false_iff in H; destruct H as [H ?]).
  assert (Hl : (c =? 32) = false /\ (c =? 9) = false) by (unfold is_ws in Hw; apply orb_false_iff in Hw; exact Hw).
  destruct Hl as [Hl1 Hl2].
  unfold lex_line. cbn [skip_ws leading_ws]. rewrite Hw, Hl1, Hl2, !prefix_b_2, H47, H60, H45.
  cbn [prefix_b]. rewrite (N.eqb_sym 61 c), H61.
  repeat match goal with E : (c =? _) = false |- _ => rewrite E; clear E end. reflexivity.
Qed.

Lemma lex_line_escape t rest_ : line_text_ok t ->
  lex_line (escape t ++ rest_) = lex_text rest_ (rev t).
Proof.
  intros (Hn & Hc). destruct t as [|c t]; [contradiction|]. destruct Hc as (Hc & Hm & He).
  unfold no_newline in Hn. cbn [forallb] in Hn. apply andb_true_iff in Hn as [Hcn Htn]. apply negb_true_iff in Hcn.
  cbn [escape flat_map rev]. change (flat_map esc1 t) with (escape t). rewrite <- !app_assoc.
  rewrite <- (lex_text_escape t rest_ [c] Htn). unfold esc1. destruct (special c) eqn:Es; cbn [app].
  - (* the first character is written escaped: ESCAPED_ANY *)
    apply lex_line_backslash, special_escapable, Es.
  - (* written as it is: ANY *)
    apply lex_line_plain; try assumption. apply special_plain; assumption.
Qed.

Theorem text_then_end t r tags : line_text_ok t -> ends_line r tags -> lex_line (escape t ++ r) = Some (t, tags).
Proof. intros H Hr. rewrite (lex_line_escape t r H), Hr, rev_involutive. reflexivity. Qed.

Theorem text_roundtrip t : line_text_ok t -> lex_line (escape t) = Some (t, []).
Proof. intros H. rewrite <- (app_nil_r (escape t)). exact (text_then_end t _ _ H ends_line_nil). Qed.

Theorem text_tags_roundtrip t t0 tags : line_text_ok t -> good_tag t0 -> Forall good_tag tags ->
  lex_line (escape t ++ 35 :: t0 ++ render_tags tags) = Some (t, t0 :: tags).
Proof. intros H H0 Hts. exact (text_then_end t _ _ H (ends_line_tags t0 tags H0 Hts)). Qed.

Theorem comment_removed t cm : line_text_ok t -> no_newline cm ->
  lex_line (escape t ++ 47 :: 47 :: cm) = Some (t, []).
Proof. intros H _. exact (text_then_end t _ _ H (ends_line_comment cm)). Qed.

(* optional escapes give the same text: '>' and '}' may be written with or without a backslash *)
Theorem optional_escape_same c rest_ acc : (c =? 62) || (c =? 125) = true ->
  lex_text (92 :: c :: rest_) acc = lex_text (c :: rest_) acc.
Proof.
  intros H. apply orb_true_iff in H as [H|H]; apply N.eqb_eq in H; subst; reflexivity.
Qed.

(* known finding D21: an escaped markup bracket is fine inside a line, a syntax error at its start *)
Example first_char_bracket_refuted :
  lex_line [97; 92; 91; 98; 92; 93] = Some ([97; 92; 91; 98; 92; 93], []) /\ lex_line [92; 91; 98; 92; 93] = None.
Proof. split; reflexivity. Qed.
