(* C18 (model part): runners share nothing.  A system of runner states driven by ANY interleaving of
   per-runner operations: each runner's state - hence its trace - is what it is when that runner is
   driven alone with its own operations. *)
From Coq Require Import List Arith Lia.
Import ListNotations.

Section Interleave.
  Variables (S Op : Type) (step : S -> Op -> S).

  Fixpoint upd (l : list S) (i : nat) (x : S) : list S :=
    match l, i with
    | [], _ => []
    | _ :: t, O => x :: t
    | h :: t, Datatypes.S k => h :: upd t k x
    end.

  Definition sys_step (sys : list S) (io : nat * Op) : list S :=
    match nth_error sys (fst io) with
    | Some s => upd sys (fst io) (step s (snd io))
    | None => sys
    end.

  Definition solo (s : S) (i : nat) (sched : list (nat * Op)) : S :=
    fold_left step (map snd (filter (fun io => Nat.eqb (fst io) i) sched)) s.

  Lemma nth_upd_same l i x s : nth_error l i = Some s -> nth_error (upd l i x) i = Some x.
  Proof. revert i; induction l as [|h t IH]; intros [|i] H; cbn in *; try discriminate; auto. Qed.

  Lemma nth_upd_other l i j x : i <> j -> nth_error (upd l i x) j = nth_error l j.
  Proof. revert i j; induction l as [|h t IH]; intros [|i] [|j] H; cbn; auto; lia. Qed.

  Theorem interleaving_projection : forall sched sys i s,
    nth_error sys i = Some s ->
    nth_error (fold_left sys_step sched sys) i = Some (solo s i sched).
  Proof.
    induction sched as [|[j o] sched IH]; intros sys i s H; [exact H|].
    cbn [fold_left]. unfold solo. cbn [filter fst snd]. unfold sys_step at 2. cbn [fst snd].
    destruct (Nat.eqb_spec j i) as [E|E].
    - subst j. rewrite H. cbn [map fold_left].
      apply (IH _ i (step s o)). apply (nth_upd_same _ _ _ s H).
    - destruct (nth_error sys j) as [sj|] eqn:Ej.
      + apply (IH _ i s). rewrite nth_upd_other by exact E. exact H.
      + apply (IH _ i s). exact H.
  Qed.
End Interleave.
