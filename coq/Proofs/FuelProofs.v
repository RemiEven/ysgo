(* Fuel is a proof device: whenever Next answers with some fuel (anything but OutOfFuel), it gives
   the same answer and the same state with any larger fuel.  So the number the wire layer passes
   (fuel_per_next) cannot influence an observation, and every theorem stated "for all fuel, unless
   OutOfFuel" speaks about one well-defined result per state and choice. *)
From Coq Require Import List ZArith Lia.
From YS Require Import Yarn.Runner Proofs.StepProofs.
Import ListNotations.

Theorem next_fuel_mono d : forall f m c r m', next d f m c = (r, m') -> r <> NFuel ->
  forall f', (f <= f')%nat -> next d f' m c = (r, m').
Proof.
  induction f as [|f IH]; intros m c r m' H Hr f' Hle.
  - inversion H; subst. contradiction.
  - destruct f' as [|f']; [lia|]. rewrite next_S in *.
    destruct (next_step d m c); [exact H|]. apply (IH _ _ _ _ H Hr). lia.
Qed.

Corollary next_fuel_irrelevant d f1 f2 m c :
  fst (next d f1 m c) <> NFuel -> fst (next d f2 m c) <> NFuel -> next d f1 m c = next d f2 m c.
Proof.
  intros H1 H2. destruct (Nat.le_ge_cases f1 f2) as [L|L].
  - destruct (next d f1 m c) as [r m'] eqn:E. symmetry. exact (next_fuel_mono d f1 m c r m' E H1 f2 L).
  - destruct (next d f2 m c) as [r m'] eqn:E. exact (next_fuel_mono d f2 m c r m' E H2 f1 L).
Qed.

(* OutOfFuel is only ever reported for want of fuel: less fuel cannot do better *)
Corollary out_of_fuel_downward d f f' m c : (f' <= f)%nat ->
  fst (next d f m c) = NFuel -> fst (next d f' m c) = NFuel.
Proof.
  intros L H. destruct (next d f' m c) as [r m'] eqn:E. cbn [fst].
  destruct r; try reflexivity;
    (rewrite (next_fuel_mono d f' m c _ m' E (fun X => ltac:(discriminate X)) f L) in H; discriminate H).
Qed.
