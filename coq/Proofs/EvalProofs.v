(* C02: the evaluator follows the operator table, and/or are lazy, arguments are evaluated left to
   right exactly once, every ill-typed operation is an error.  C06, expression level: evaluation has
   no panic outcome. *)
From Coq Require Import List NArith.
From YS Require Import Base.Sexp Num.F64 Yarn.Ast Yarn.Value Yarn.Eval Proofs.ExprInd.
Import ListNotations.

(* the operator table of Yarn: result of [a op b] for same-typed operands, None = error *)
Definition table (o : binop) (a b : value) : option value :=
  match o, a, b with
  | OMul, VNum x, VNum y => Some (VNum (fmul x y))
  | ODiv, VNum x, VNum y => Some (VNum (fdiv x y))
  | OMod, VNum x, VNum y => Some (VNum (fmod x y))                  (* floating remainder *)
  | OAdd, VNum x, VNum y => Some (VNum (fadd x y))
  | OAdd, VStr x, VStr y => Some (VStr (x ++ y))                    (* + also concatenates strings *)
  | OSub, VNum x, VNum y => Some (VNum (fsub x y))
  | OLe, VNum x, VNum y => Some (VBool (fleb x y))
  | OGe, VNum x, VNum y => Some (VBool (fleb y x))
  | OLt, VNum x, VNum y => Some (VBool (fltb x y))
  | OGt, VNum x, VNum y => Some (VBool (fltb y x))
  | OEq, VNum x, VNum y => Some (VBool (feqb x y))
  | OEq, VBool x, VBool y => Some (VBool (Bool.eqb x y))
  | OEq, VStr x, VStr y => Some (VBool (str_eqb x y))
  | ONe, VNum x, VNum y => Some (VBool (negb (feqb x y)))
  | ONe, VBool x, VBool y => Some (VBool (negb (Bool.eqb x y)))
  | ONe, VStr x, VStr y => Some (VBool (negb (str_eqb x y)))
  | OAnd, VBool x, VBool y => Some (VBool (x && y))
  | OOr, VBool x, VBool y => Some (VBool (x || y))
  | OXor, VBool x, VBool y => Some (VBool (xorb x y))
  | _, _, _ => None
  end.

Definition of_opt (o : option value) : outcome value := match o with Some v => Val v | None => Fail end.

(* the left operand alone decides: false and _, true or _ *)
Definition decided (o : binop) (a : value) : bool :=
  match o, a with
  | OAnd, VBool false | OOr, VBool true => true
  | _, _ => false
  end.

Theorem binop_on_values v o a b e :
  eval v (EBin o (EVal a) (EVal b)) e = (if decided o a then Val a else of_opt (table o a b), e).
Proof. destruct o, a as [x|[|]|x], b as [y|[|]|y]; reflexivity. Qed.

Lemma decided_agrees_with_table o a y : decided o a = true -> table o a (VBool y) = Some a.
Proof. destruct o, a as [x|[|]|x]; cbn; intros H; try discriminate; reflexivity. Qed.

(* operands of different types: an error for every operator, except that a left operand which
   already decides and/or is returned without looking at the right one *)
Theorem ill_typed_is_error o a b : same_type a b = false -> table o a b = None.
Proof. destruct o, a, b; cbn; intros H; try reflexivity; discriminate. Qed.

Theorem unary_table v a e :
  eval v (ENeg (EVal a)) e = (match a with VNum n => Val (VNum (fneg n)) | _ => Fail end, e) /\
  eval v (ENot (EVal a)) e = (match a with VBool b => Val (VBool (negb b)) | _ => Fail end, e).
Proof. destruct a; split; reflexivity. Qed.

Theorem eval_bin_unfold v o l r e :
  eval v (EBin o l r) e =
  match eval v l e with
  | (Val lv, e1) =>
      match o, lv with
      | OAnd, VBool false => (Val lv, e1)                     (* right operand NOT evaluated *)
      | OOr, VBool true => (Val lv, e1)
      | OAnd, VBool true | OOr, VBool false | OAnd, _ | OOr, _ =>
          match lv with
          | VBool _ => match eval v r e1 with
                       | (Val rv, e2) => (if same_type lv rv then apply_binop o lv rv else Fail, e2)
                       | res => res
                       end
          | _ => (Fail, e1)                                   (* and/or on a non-boolean: error, right not evaluated *)
          end
      | _, _ => match eval v r e1 with
                | (Val rv, e2) => (if same_type lv rv then apply_binop o lv rv else Fail, e2)
                | res => res
                end
      end
  | res => res
  end.
Proof.
  cbn [eval]. destruct (eval v l e) as [[lv| |] e1]; try reflexivity.
  destruct o, lv as [x|[|]|x]; reflexivity.
Qed.

Theorem apply_binop_is_table o a b : same_type a b = true -> decided o a = false ->
  apply_binop o a b = of_opt (table o a b).
Proof.
  destruct o, a as [x|[|]|x], b as [y|[|]|y]; cbn; intros H D; try reflexivity; discriminate.
Qed.

(* short-circuit: the host log (and the RNG) after [false and r] / [true or r] is the one after
   the left operand alone: nothing of r ran *)
Theorem and_short_circuit v l r e e1 : eval v l e = (Val (VBool false), e1) ->
  eval v (EBin OAnd l r) e = (Val (VBool false), e1).
Proof. intros H. rewrite eval_bin_unfold, H. reflexivity. Qed.

Theorem or_short_circuit v l r e e1 : eval v l e = (Val (VBool true), e1) ->
  eval v (EBin OOr l r) e = (Val (VBool true), e1).
Proof. intros H. rewrite eval_bin_unfold, H. reflexivity. Qed.

Lemma eval_call_args v f : forall args e,
  eval v (ECall f args) e =
  match eval_list v args e with
  | (Val vs, e1) => match call_function v f vs e1 with
                    | (Val (Some r), e2) => (Val r, e2)
                    | (Val None, e2) => (Fail, e2)
                    | (Fail, e2) => (Fail, e2)
                    | (Crash, e2) => (Crash, e2)
                    end
  | (Fail, e1) => (Fail, e1)
  | (Crash, e1) => (Crash, e1)
  end.
Proof.
  intros args e. cbn [eval].
  match goal with |- context [?F args e] =>
    assert (HA : forall l e0, F l e0 = eval_list v l e0)
  end.
  { induction l as [|a l IHl]; intros e0; [reflexivity|]. cbn [eval_list].
    destruct (eval v a e0) as [[va| |] e1]; try reflexivity. rewrite IHl. reflexivity. }
  rewrite HA. reflexivity.
Qed.

Theorem eval_list_cons v a r e :
  eval_list v (a :: r) e =
  match eval v a e with
  | (Val va, e1) => match eval_list v r e1 with
                    | (Val vr, e2) => (Val (va :: vr), e2)
                    | (Fail, e2) => (Fail, e2)
                    | (Crash, e2) => (Crash, e2)
                    end
  | (Fail, e1) => (Fail, e1)
  | (Crash, e1) => (Crash, e1)
  end.
Proof. reflexivity. Qed.

Theorem probe_logs_once v args e vs e1 : eval_list v args e = (Val vs, e1) ->
  hlog (snd (eval v (ECall (STR "p") args) e)) = HCall (STR "p") vs :: hlog e1.
Proof.
  intros H. rewrite eval_call_args, H. unfold call_function, call_probe.
  change (str_eqb (STR "p") (STR "p")) with true. cbn iota.
  destruct (rev vs); reflexivity.
Qed.

Lemma eval_list_vals v l e : eval_list v (map EVal l) e = (Val l, e).
Proof. induction l as [|a l IH]; [reflexivity|]. cbn [map eval_list eval]. rewrite IH. reflexivity. Qed.

Lemma call_probe_no_crash f args e r : call_probe f args e = Some r -> fst r <> Crash.
Proof.
  unfold call_probe. intros H.
  destruct (str_eqb f (STR "p")); [injection H as <-; cbn [fst]; destruct (rev args); discriminate|].
  destruct (str_eqb f (STR "noret")); [injection H as <-; discriminate|].
  destruct (str_eqb f (STR "fail")); [injection H as <-; discriminate|discriminate H].
Qed.

(* call_builtin as a function of the environment: no such name; an answer that leaves the environment
   alone; or one of the two kinds of draw, whose result becomes the value *)
Inductive bshape := BNone | BPure (o : outcome (option value)) | BIntn (n : Z) (k : Z -> value) | BFloat.

Definition brun (b : bshape) (e : fenv) : option (outcome (option value) * fenv) :=
  match b with
  | BNone => None
  | BPure o => Some (o, e)
  | BIntn n k => let '(r, e1) := intn n e in Some (Val (Some (k r)), e1)
  | BFloat => let '(x, e1) := float64_loop 16 e in Some (Val (Some (VNum x)), e1)
  end.

(* stated about variables: with the arithmetic of dice or random_range in place of n and k, checking
   [reflexivity] against brun unfolds intn into that arithmetic *)
Lemma intn_shape vis n k : exists b, b <> BPure Crash /\
  forall v e, rvisits v = vis -> (let '(r, e1) := intn n e in Some (Val (Some (k r)), e1)) = brun b e.
Proof. exists (BIntn n k). split; [discriminate|reflexivity]. Qed.

(* of the reading environment only the visit counts matter; a pure answer is never a panic.
   By cases on the name, the argument list and the domain tests: a finite table, and in each entry
   the shape is read off; the numeric functions are never evaluated *)
Lemma call_builtin_shape vis f args : exists b,
  b <> BPure Crash /\ forall v e, rvisits v = vis -> call_builtin v f args e = brun b e.
Proof.
  unfold call_builtin, num1.
  repeat match goal with
         | |- context [if ?c then _ else _] => destruct c
         | |- context [match ?x with _ => _ end] => destruct x
         end.
  all: first [ exists BNone; split; [discriminate|reflexivity]
             | eexists (BPure _); split; [|intros ? ? Hv; rewrite ?Hv; reflexivity]; discriminate
             | apply intn_shape
             | exists BFloat; split; [discriminate|reflexivity] ].
Qed.

Lemma call_builtin_no_crash v f args e r : call_builtin v f args e = Some r -> fst r <> Crash.
Proof.
  destruct (call_builtin_shape (rvisits v) f args) as (b & Hb & E). rewrite (E v e eq_refl).
  destruct b as [|o|n k|]; cbn [brun].
  - discriminate.
  - intros [= <-] Ho. apply Hb. cbn [fst] in Ho. rewrite Ho. reflexivity.
  - destruct (intn n e). intros [= <-]. discriminate.
  - destruct (float64_loop 16 e). intros [= <-]. discriminate.
Qed.

Lemma call_function_no_crash v f args e : fst (call_function v f args e) <> Crash.
Proof.
  unfold call_function.
  destruct (call_probe f args e) as [r|] eqn:E1; [apply (call_probe_no_crash _ _ _ _ E1)|].
  destruct (call_builtin v f args e) as [r|] eqn:E2; [apply (call_builtin_no_crash _ _ _ _ _ E2)|].
  discriminate.
Qed.

(* the shape in which every sequential composition of the models is written: go on with the value,
   hand a failure or a panic through *)
Lemma no_crash_bind {St A B} (r : outcome A * St) (k : A -> St -> outcome B * St) :
  fst r <> Crash -> (forall a t, fst (k a t) <> Crash) ->
  fst (match r with (Val a, t) => k a t | (Fail, t) => (Fail, t) | (Crash, t) => (Crash, t) end) <> Crash.
Proof. intros H K. destruct r as [[a| |] t]; [apply K|discriminate|destruct (H eq_refl)]. Qed.

Lemma eval_list_no_crash v l : Forall (fun x => forall e, fst (eval v x e) <> Crash) l ->
  forall e, fst (eval_list v l e) <> Crash.
Proof.
  induction 1 as [|x l Hx _ IH]; intros e; cbn [eval_list]; [discriminate|].
  apply no_crash_bind; [apply Hx|]. intros va e1. apply no_crash_bind; [apply IH|]. discriminate.
Qed.

Theorem eval_never_crashes v : forall x e, fst (eval v x e) <> Crash.
Proof.
  induction x as [a|id| |f args IH|a IH|a IH|o l r IHl IHr] using expr_ind'; intros e.
  - discriminate.
  - cbn [eval]. destruct (st_get (rvars v) id); discriminate.
  - discriminate.
  - rewrite eval_call_args. apply no_crash_bind; [exact (eval_list_no_crash v args IH e)|]. intros vs e1.
    pose proof (call_function_no_crash v f vs e1) as Hc.
    destruct (call_function v f vs e1) as [[[r0|]| |] e2]; try discriminate. destruct (Hc eq_refl).
  - cbn [eval]. apply no_crash_bind; [apply IH|]. intros [n|b|t] e1; discriminate.
  - cbn [eval]. apply no_crash_bind; [apply IH|]. intros [n|b|t] e1; discriminate.
  - cbn [eval]. apply no_crash_bind; [apply IHl|]. intros lv e1.
    (* whichever way the operator and the left value decide, what is left is the right operand *)
    assert (K : fst (match eval v r e1 with
                     | (Val rv, e2) => (if same_type lv rv then apply_binop o lv rv else Fail, e2)
                     | res => res end) <> Crash).
    { apply no_crash_bind; [apply IHr|]. intros rv e2. cbn [fst].
      destruct (same_type lv rv); [|discriminate]. destruct o, lv, rv; discriminate. }
    destruct o, lv as [n|[|]|t]; first [exact K|discriminate].
Qed.
