(* C13: the implicit character attribute in documents with typed properties and self-closing markers
   (the documents of Proofs/MarkupPropsProofs.v). *)
From Coq Require Import List ZArith Bool.
From YS Require Import Base.Sexp Yarn.Value Markup.LineParser Proofs.MarkupProofs Proofs.MarkupPropsProofs.
Require YS.Proofs.MarkupCharacterProofs.
Module CP := YS.Proofs.MarkupCharacterProofs.
Import ListNotations.
Local Open Scope Z_scope.

Theorem document_with_character_prefix its n t :
  Forall item_ok its -> selfs_ok its [] ->
  text its = n ++ 58%N :: t -> forallb CP.no_colon n = true ->
  no_edge_space (text its) ->
  (forall encl e, enclosed its [] [] = Some encl -> In e encl -> str_eqb (ename e) (STR "character") = false) ->
  match enclosed its [] [] with
  | Some encl =>
      exists attrs, parse_markup (render its) =
          Some (text its, attrs ++ [{| aname := STR "character"; apos := 0;
                                       alen := Z.of_nat (S (length n) + count_re_space t); asrc := 0;
                                       aprops := [(STR "name", MStr (trim_space n))] |}]) /\
        length attrs = length encl /\
        (forall e, In e encl -> exists a, In a attrs /\ aname a = ename e /\ aprops a = props_map (eprops e) /\
                                          text_for_attribute (text its) a = Some (snd e)) /\
        (forall a, In a attrs -> exists e, In e encl /\ aname a = ename e /\ aprops a = props_map (eprops e) /\
                                           text_for_attribute (text its) a = Some (snd e))
  | None => parse_markup (render its) = None
  end.
Proof.
  intros Hok Hso HT Hcolon Hedge Hnochar. pose proof (document_parse its Hok Hso Hedge) as H.
  destruct (enclosed its [] []) as [encl|]; [|exact H]. destruct H as (attrs0 & F & E).
  exists (sort_attrs attrs0).
  split; [|exact (sorted_matches _ (reads_as (text its)) _ _ (arel_reads_as _) F)].
  rewrite E, (has_char_names _ ename _ _ (fun a e H => proj1 H) F). do 3 f_equal.
  replace (existsb _ encl) with false; [rewrite HT; apply char_attr_prefix; exact Hcolon|].
  symmetry. apply not_true_is_false. intros Hc. apply existsb_exists in Hc as (e & He & Hn).
  rewrite (Hnochar encl e eq_refl He) in Hn. discriminate.
Qed.
