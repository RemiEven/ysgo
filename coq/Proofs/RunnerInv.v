(* The statement-level primitives of Yarn/Runner.v, each described once: the poll; evaluation and
   rendering never panic and touch only the function environment; what a jump and a command do to
   the data state. *)
From Coq Require Import List.
From YS Require Import Base.Sexp Yarn.Ast Yarn.Value Yarn.Eval Markup.LineParser Yarn.Runner Proofs.EvalProofs.
Import ListNotations.

Lemma poll_none s : pending s = None -> poll s = (None, s).
Proof. intros H. unfold poll. rewrite H. reflexivity. Qed.

Lemma poll_idem s s0 : poll s = (None, s0) -> pending s0 = None.
Proof.
  unfold poll. destruct (pending s) as [[[|n] [|]]|] eqn:E; intros H; inversion H; subst; try reflexivity. exact E.
Qed.

Lemma poll_answer s r s0 : poll s = (Some r, s0) -> r = NWait \/ r = NErr.
Proof. unfold poll. destruct (pending s) as [[[|n] [|]]|]; intros H; inversion H; auto. Qed.

(* the host side of the data state: function environment, pending command, completion schedule *)
Definition upd_host (s : dstate) (e : fenv) (p : option (nat * cresult)) (sc : list (nat * cresult)) : dstate :=
  {| vars := vars s; slog := slog s; pending := p; cur := cur s; visits := visits s; vsnap := vsnap s;
     fe := e; sched := sc; hcmds := hcmds s; jlog := jlog s; vbase := vbase s |}.

Lemma poll_host s : snd (poll s) = upd_host s (fe s) (pending (snd (poll s))) (sched s).
Proof. unfold poll. destruct (pending s) as [[[|k] [|]]|] eqn:E; try reflexivity. destruct s; cbn in *; subst; reflexivity. Qed.

(* nothing but the function environment (RNG stream, host log) differs; as an equation, so that any
   other field of s' computes to the field of s after rewriting *)
Definition only_fe (s s' : dstate) : Prop := s' = upd_fe s (fe s').

Lemma only_fe_refl s : only_fe s s.
Proof. destruct s; reflexivity. Qed.

Lemma only_fe_trans a b c : only_fe a b -> only_fe b c -> only_fe a c.
Proof. unfold only_fe. intros -> ->. reflexivity. Qed.

Definition ev_ok {A} (s : dstate) (r : outcome A * dstate) : Prop := fst r <> Crash /\ only_fe s (snd r).

Lemma ev_ok_pair {A} s (o : outcome A) : o <> Crash -> ev_ok s (o, s).
Proof. intros H. split; [exact H|apply only_fe_refl]. Qed.

Lemma ev_ok_bind {A B} s (r : outcome A * dstate) (k : A -> dstate -> outcome B * dstate) :
  ev_ok s r -> (forall a t, ev_ok t (k a t)) ->
  ev_ok s (match r with (Val a, t) => k a t | (Fail, t) => (Fail, t) | (Crash, t) => (Crash, t) end).
Proof.
  intros [N E] K. destruct r as [[a| |] t]; cbn [fst snd] in *; [|split; [discriminate|exact E]|destruct (N eq_refl)].
  destruct (K a t) as [N' E']. split; [exact N'|exact (only_fe_trans _ _ _ E E')].
Qed.

Lemma eval_in_ok s x : ev_ok s (eval_in s x).
Proof.
  unfold eval_in. pose proof (eval_never_crashes (renv_of s) x (fe s)) as H.
  destruct (eval (renv_of s) x (fe s)). split; [exact H|reflexivity].
Qed.

Lemma render_parts_ok ps : forall s acc, ev_ok s (render_parts s ps acc).
Proof.
  induction ps as [|[t|x] ps IH]; intros s acc; cbn [render_parts].
  - apply ev_ok_pair. discriminate.
  - apply IH.
  - apply ev_ok_bind; [apply eval_in_ok|]. intros v s1. apply IH.
Qed.

Lemma render_line_ok s l : ev_ok s (render_line s l).
Proof.
  unfold render_line. apply ev_ok_bind; [apply render_parts_ok|]. intros t s1.
  destruct (parse_markup t) as [[t' a]|]; apply ev_ok_pair; discriminate.
Qed.

Lemma render_options_ok os : forall s, ev_ok s (render_options s os).
Proof.
  induction os as [|[l b] os IH]; intros s; cbn [render_options]; [apply ev_ok_pair; discriminate|].
  apply ev_ok_bind; [apply render_line_ok|]. intros rl s1. apply ev_ok_bind.
  - destruct (lcond l) as [c|]; [|apply ev_ok_pair; discriminate].
    apply ev_ok_bind; [apply eval_in_ok|]. intros [n|bb|t] s2; apply ev_ok_pair; discriminate.
  - intros dd s2. apply ev_ok_bind; [apply IH|]. intros rest s3. apply ev_ok_pair. discriminate.
Qed.

Lemma exec_if_ok cs : forall s, ev_ok s (exec_if cs s).
Proof.
  induction cs as [|[c b] cs IH]; intros s; cbn [exec_if]; [apply ev_ok_pair; discriminate|].
  apply ev_ok_bind; [apply eval_in_ok|]. intros [n|[|]|t] s1; first [apply IH|apply ev_ok_pair; discriminate].
Qed.

Lemma exec_call_frame f args s : only_fe s (snd (exec_call f args s)).
Proof.
  unfold exec_call. destruct (eval_list (renv_of s) args (fe s)) as [[vs| |] e1]; try reflexivity.
  destruct (call_function (renv_of s) f vs e1). reflexivity.
Qed.

Lemma find_node_title d t n : find_node d t = Some n -> title n = t.
Proof.
  induction d as [|x r IH]; cbn [find_node]; [discriminate|].
  destruct (str_eqb (title x) t) eqn:E; [|exact IH]. intros H. inversion H; subst. apply str_eqb_eq. exact E.
Qed.

(* the state a successful jump to node n leaves *)
Definition enter (d : dialogue) (n : node) (s : dstate) : dstate :=
  {| vars := vars s; slog := slog s; pending := pending s; cur := title n;
     visits := if tracked d (cur s) then bump (visits s) (cur s) else visits s;
     vsnap := st_values (vars s); fe := fe s; sched := sched s; hcmds := hcmds s;
     jlog := cur s :: jlog s; vbase := vbase s |}.

Lemma exec_jump_shape d e s :
  exec_jump d e s =
    let s1 := snd (eval_in s e) in
    match fst (eval_in s e) with
    | Val (VStr t) => match find_node d t with
                      | Some n => (Some (body n), enter d n s1)
                      | None => (None, s1)
                      end
    | _ => (None, s1)
    end.
Proof. unfold exec_jump. destruct (eval_in s e) as [[[n|b|t]| |] s1]; reflexivity. Qed.

(* a command touches the host side only, and leaves a command pending only when it answers with a wait *)
Lemma exec_command_spec es s :
  let (r, s') := exec_command es s in
  s' = upd_host s (fe s') (pending s') (sched s') /\ (pending s = None -> r <> CmdWait -> pending s' = None).
Proof.
  unfold exec_command. destruct es as [|e0 es']; [destruct s; split; [reflexivity|auto]|].
  destruct (eval_list (renv_of s) (e0 :: es') (fe s)) as [[[|[n|b|name] args]| |] e1]; try (split; [reflexivity|auto]).
  destruct (str_eqb name (STR "stop")); [split; [reflexivity|auto]|].
  destruct (mem_str name (hcmds (upd_fe s e1))).
  - destruct (sched (upd_fe s e1)) as [|[[|k] [|]] rest]; (split; [reflexivity|]); intros _ Hr; try reflexivity; contradiction.
  - destruct (str_eqb name (STR "wait")); [|split; [reflexivity|auto]].
    destruct args as [|[n|b|t] [|? ?]]; (split; [reflexivity|]); auto. intros _ Hr. contradiction.
Qed.
