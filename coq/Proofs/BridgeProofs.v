(* C16: a registration that succeeds yields a bridge that never reaches reflect.Call with arguments
   violating its precondition, for every signature and every argument list. *)
From Coq Require Import List NArith Bool.
From YS Require Import Num.F64 Yarn.Ast Yarn.Eval Yarn.Bridge.
Import ListNotations.

Lemma gotype_eqb_refl t : gotype_eqb t t = true.
Proof. unfold gotype_eqb. destruct (gk t); apply N.eqb_refl. Qed.

Theorem conversion_faithful t v g : convert_arg t v = Some g ->
  vtype g = t /\
  match v, vpay g with
  | VBool b, PBool b' => b = b'
  | VStr s, PStr s' => s = s'
  | VNum x, PInt z => z = int_conv (gk t) x
  | VNum x, PFloat f => f = x \/ f = to_f32 x
  | _, _ => False
  end.
Proof. unfold convert_arg. destruct (gk t), v; intros [= <-]; cbn; auto. Qed.

Lemma convert_arg_type t v g : convert_arg t v = Some g -> vtype g = t.
Proof. intros H. apply (conversion_faithful t v g H). Qed.

Lemma convert_tail_types t : forall args gs, convert_tail t args = Some gs ->
  forallb (fun g => gotype_eqb (vtype g) t) gs = true.
Proof.
  induction args as [|a r IH]; intros gs H; cbn [convert_tail] in H.
  - inversion H. reflexivity.
  - destruct (convert_arg t a) as [g|] eqn:E; [|discriminate].
    destruct (convert_tail t r) as [gs'|] eqn:E2; [|discriminate]. inversion H; subst.
    cbn [forallb]. rewrite (convert_arg_type _ _ _ E), gotype_eqb_refl. apply IH. reflexivity.
Qed.

Lemma convert_fixed_ok ps : forall args gs rest tail_gs, convert_fixed ps args = Some (gs, rest) ->
  call_ok_fixed ps (gs ++ tail_gs) = Some tail_gs.
Proof.
  induction ps as [|p ps IH]; intros args gs rest tail_gs H; cbn [convert_fixed] in H.
  - inversion H; subst. reflexivity.
  - destruct args as [|a args']; [discriminate|].
    destruct (convert_arg p a) as [g|] eqn:E; [|discriminate].
    destruct (convert_fixed ps args') as [[gs' rest']|] eqn:E2; [|discriminate]. inversion H; subst.
    cbn [app call_ok_fixed]. rewrite (convert_arg_type _ _ _ E), gotype_eqb_refl. eapply IH. exact E2.
Qed.

Theorem converted_arguments_are_callable s args gs : convert_args s args = Some gs -> call_ok s gs = true.
Proof.
  unfold convert_args, call_ok.
  destruct (convert_fixed (params s) args) as [[fixed rest]|] eqn:E; [|discriminate].
  destruct (variadic s) as [t|].
  - destruct (convert_tail t rest) as [tl|] eqn:E2; [|discriminate]. cbn [option_map]. intros H. inversion H; subst.
    rewrite (convert_fixed_ok _ _ _ _ tl E). apply (convert_tail_types t rest tl E2).
  - destruct rest; [|discriminate]. intros H. inversion H; subst.
    rewrite <- (app_nil_r gs) at 1. rewrite (convert_fixed_ok _ _ _ _ [] E). reflexivity.
Qed.

(* a host function returns as many results as its type says *)
Definition host_ok (s : signature) (host : list goval -> hostret) : Prop :=
  forall gs, match host gs with HRet vals _ => length vals = length (results s) end.

Theorem accepted_function_never_panics r b host args :
  register_function r = Some b -> host_ok (bsig b) host -> call_function_bridge b host args <> Crash.
Proof.
  intros Hr Hh. unfold call_function_bridge.
  destruct (convert_args (bsig b) args) as [gs|] eqn:E; [|discriminate].
  rewrite (converted_arguments_are_callable _ _ _ E). cbn [negb].
  specialize (Hh gs). destruct (host gs) as [vals enil].
  unfold register_function, register in Hr. destruct r as [| |s|s]; try discriminate.
  destruct (check_function_outputs (results s)) as [rs|] eqn:Ec; [|discriminate].
  destruct (inputs_ok s); [|discriminate]. inversion Hr; subst. cbn [bret bsig] in *.
  unfold check_function_outputs in Ec.
  destruct (results s) as [|o1 [|o2 [|o3 rest]]]; cbn [length] in Hh.
  - (* no result *) inversion Ec; subst. discriminate.
  - (* one: a value or an error *) destruct vals as [|v vs]; [discriminate|].
    destruct (value_kind (gk o1)); [inversion Ec; subst; destruct (tree_value v); discriminate|].
    destruct (gerr o1); [inversion Ec; subst; destruct enil; discriminate|discriminate].
  - (* a value and an error *) destruct vals as [|v vs]; [discriminate|].
    destruct (value_kind (gk o1) && gerr o2); [|discriminate]. inversion Ec; subst.
    destruct enil; [destruct (tree_value v)|]; discriminate.
  - discriminate.
Qed.

Theorem accepted_command_never_panics r b host chan_nil args :
  register_command r = Some b -> host_ok (bsig b) host -> call_command_bridge b host chan_nil args <> Crash.
Proof.
  intros Hr Hh. unfold call_command_bridge.
  destruct (convert_args (bsig b) args) as [gs|] eqn:E; [|discriminate].
  rewrite (converted_arguments_are_callable _ _ _ E). cbn [negb].
  specialize (Hh gs). destruct (host gs) as [vals enil].
  unfold register_command, register in Hr. destruct r as [| |s|s]; try discriminate.
  destruct (check_command_outputs (results s)) as [rs|] eqn:Ec; [|discriminate].
  destruct (inputs_ok s); [|discriminate]. inversion Hr; subst. cbn [bret bsig] in *.
  unfold check_command_outputs in Ec.
  destruct (results s) as [|o1 [|o2 rest]].
  - (* no result *) inversion Ec; subst. discriminate.
  - (* one: an error or a channel of errors *) destruct (gerr o1); [inversion Ec; subst; discriminate|].
    destruct (gk o1); try discriminate. destruct (gelem_err o1); [|discriminate]. inversion Ec; subst.
    destruct chan_nil; [discriminate|]. destruct (gplain_err_chan o1); discriminate.
  - discriminate.
Qed.

Theorem nil_and_non_functions_are_refused :
  register_function RNilInterface = None /\ register_function RNotAFunction = None /\
  (forall s, register_function (RNilFunction s) = None) /\
  register_command RNilInterface = None /\ register_command RNotAFunction = None /\
  (forall s, register_command (RNilFunction s) = None).
Proof. repeat split. Qed.

Definition bridgeable_function (s : signature) : bool :=
  inputs_ok s && match check_function_outputs (results s) with Some _ => true | None => false end.

Theorem function_registration_characterised s :
  (exists b, register_function (RFunction s) = Some b) <-> bridgeable_function s = true.
Proof.
  unfold register_function, register, bridgeable_function.
  destruct (check_function_outputs (results s)) as [rs|], (inputs_ok s); cbn;
    (split; [intros [b [=]]|intros [=]]); eauto.
Qed.
