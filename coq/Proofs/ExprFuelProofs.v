(* The fuel of the expression parser model.  Proofs/ExprParserProofs.v shows that reading a written form
   costs two units of fuel per token on top of what its continuation needs, and that more fuel never
   changes an answer; here the amount for a whole expression is made explicit: fuel
   2 * (number of tokens) + 1 suffices - so parse_expression, which the statement parser calls with
   4 * tokens + 4, reads every written form back. *)
From Coq Require Import List Lia.
From YS Require Import Yarn.Ast Generated.ExprTable Syntax.ExprParser Proofs.ExprParserProofs.
Import ListNotations.

Section Fuel.
  Variables (lvl rprec : binop -> nat) (negp notp : nat).

  Hypothesis WF : wf_table lvl rprec negp notp.

  Theorem prints_parse_with_fuel e ts k fuel :
    Prints lvl rprec negp notp 0 e ts k -> 1 + 2 * length ts <= fuel -> parse_expr lvl rprec negp notp fuel 0 ts = Some (e, []).
  Proof.
    intros H Hf. apply (PE_mono _ _ _ _ (2 * length ts + 1)); [lia|].
    exact (prints_parse_exact _ _ _ _ WF e ts k H).
  Qed.
End Fuel.

Theorem written_expression_parses e ts k :
  Prints level right_prec neg_operand_prec not_operand_prec 0 e ts k -> parse_expression ts = Some e.
Proof.
  intros H. unfold parse_expression, ys_parse_expr.
  rewrite (prints_parse_with_fuel _ _ _ _ generated_table_wf e ts k _ H); [reflexivity|lia].
Qed.
