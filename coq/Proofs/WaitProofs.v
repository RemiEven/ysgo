(* C10, the built-in <<wait n>>: the duration handed to time.Sleep is
   time.Duration(n * float64(time.Second)) (Yarn/Timed.v: wait_nanos).  For every finite n >= 0 up to
   2^62 ns (146 years) that duration is at least n seconds, up to the rounding of the one binary64
   multiplication (relative 2^-53) and the truncation to whole nanoseconds (less than 1 ns) - in
   particular the fractional part of n is kept (D11: it used to be truncated to whole seconds).
   That time.Sleep(d) returns no earlier than d later is the Go runtime's contract (observed by the
   waits family on real timers). *)
From Coq Require Import Reals Lia Lra.
From Flocq Require Import Core Relative BinarySingleNaN.
From YS Require Import Num.F64 Yarn.Timed Proofs.F64Facts.
Local Open Scope R_scope.

Lemma billion_exact : is_finite (of_Z nanos_per_second) = true /\ B2R (of_Z nanos_per_second) = 1000000000.
Proof.
  destruct (of_Z_exact nanos_per_second) as [E F]; [apply format_int; reflexivity|apply int_lt_emax; reflexivity|].
  split; assumption.
Qed.

Lemma wait_nanos_value (n : f64) :
  is_finite n = true -> 0 <= B2R n -> B2R n * 1000000000 <= bpow radix2 62 ->
  wait_nanos n = Zfloor (rnd (B2R n * 1000000000)) /\ 0 <= rnd (B2R n * 1000000000) <= bpow radix2 62.
Proof.
  intros Fn Pos Up. destruct billion_exact as [Fb Eb]. unfold wait_nanos.
  set (x := B2R n * 1000000000) in *.
  assert (Rb : 0 <= rnd x <= bpow radix2 62)
    by (apply rnd_range; [apply generic_format_0|apply format_bpow; discriminate|split; [unfold x; lra|exact Up]]).
  pose proof (fmul_correct n _ Fn Fb) as M. rewrite Eb in M. fold x in M. destruct M as [Hv Hf].
  { rewrite Rabs_pos_eq by apply Rb. apply Rle_lt_trans with (1 := proj2 Rb), bpow_lt. reflexivity. }
  (* the product is not negative, so its truncation is a floor *)
  assert (T : Btrunc (fmul n (of_Z nanos_per_second)) = Zfloor (rnd x)).
  { apply eq_IZR. rewrite trunc_R, Hv, Ztrunc_floor by apply Rb. reflexivity. }
  split; [|exact Rb]. rewrite to_int64_trunc, T; [reflexivity|exact Hf|]. rewrite T. split.
  - apply Z.le_trans with 0%Z; [discriminate|apply Zfloor_lub, Rb].
  - apply Z.le_lt_trans with (2 ^ 62)%Z; [|reflexivity]. apply le_IZR, Rle_trans with (1 := Zfloor_lb _), Rb.
Qed.

Theorem wait_nanos_lower_bound (n : f64) :
  is_finite n = true -> 0 <= B2R n -> B2R n * 1000000000 <= bpow radix2 62 ->
  (0 <= wait_nanos n)%Z /\
  B2R n * 1000000000 * (1 - bpow radix2 (-53)) - 1 < IZR (wait_nanos n).
Proof.
  intros Fn Pos Up. destruct (wait_nanos_value n Fn Pos Up) as [-> Rb].
  set (x := B2R n * 1000000000) in *. assert (Px : 0 <= x) by (unfold x; lra).
  split; [apply Zfloor_lub, Rb|].
  pose proof (Zfloor_ub (rnd x)) as L. pose proof (bpow_gt_0 radix2 (-53)) as U0.
  destruct (Rlt_or_le x (bpow radix2 (emin + prec - 1))) as [Small|Normal].
  - (* below the normal range: x < 2^-1022 < 1, the left-hand side is negative *)
    assert (X1 : x < 1) by (apply Rlt_trans with (1 := Small), (bpow_lt radix2 _ 0); reflexivity).
    assert (0 <= IZR (Zfloor (rnd x))) by (apply IZR_le, Zfloor_lub, Rb).
    nra.
  - (* rounding error of the product *)
    pose proof (relative_error_N_FLT radix2 emin prec Hprec (fun z => negb (Z.even z)) x) as R.
    rewrite (Rabs_pos_eq x) in R by exact Px. specialize (R Normal).
    replace (/ 2 * bpow radix2 (- prec + 1)) with (bpow radix2 (-53)) in R
      by (change (/ 2) with (/ bpow radix2 1); rewrite <- bpow_opp, <- bpow_plus; reflexivity).
    apply Rabs_le_inv in R. unfold round_mode in *. lra.
Qed.

(* a poll of the pending channel answers "completed" only when at least that long has passed *)
Theorem wait_not_reported_early (n : f64) (t0 t : Z) :
  is_finite n = true -> 0 <= B2R n -> B2R n * 1000000000 <= bpow radix2 62 ->
  wait_may_complete t0 n t = true ->
  B2R n * 1000000000 * (1 - bpow radix2 (-53)) - 1 < IZR (t - t0).
Proof.
  intros Fn Pos Up H. destruct (wait_nanos_lower_bound n Fn Pos Up) as [N0 L].
  unfold wait_may_complete, wait_ready_at in H. apply Z.leb_le in H.
  rewrite Z.max_r in H by exact N0.
  apply Rlt_le_trans with (1 := L). apply IZR_le. lia.
Qed.
