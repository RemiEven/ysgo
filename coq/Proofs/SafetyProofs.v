(* C06 (no panic, faults are errors), C10 (pending command automaton), C07 (snapshots) on the
   runner model. *)
From Coq Require Import List ZArith.
From YS Require Import Base.Sexp Num.F64 Yarn.Ast Yarn.Value Yarn.Eval Yarn.Runner
     Proofs.EvalProofs Proofs.RunnerInv Proofs.SetProofs Proofs.StepProofs.
Import ListNotations.

Lemma eval_no_crash v : forall x e, fst (eval v x e) <> Crash.
Proof. exact (eval_never_crashes v). Qed.

(* the only panic left in Next: an out-of-range choice while an option group is waiting *)
Definition choice_ok (m : rstate) (c : Z) : Prop := chosen_body (last_opts m) c <> None.

Theorem next_no_panic d : forall fm m c, choice_ok m c -> fst (next d fm m c) <> NPanic.
Proof.
  intros fm m c Hc. destruct (next d fm m c) as [r m'] eqn:E. revert fm m r m' Hc E.
  apply (next_inv d c (fun m => choice_ok m c) (fun r _ => r <> NPanic)); [discriminate|].
  intros m Hc. unfold next_step, choice_ok in *.
  destruct (poll (dat m)) as [[r|] s0] eqn:Ep; [destruct (poll_answer _ _ _ Ep); subst; discriminate|].
  destruct (chosen_body (last_opts m) c) as [b|] eqn:Ec; [|congruence].
  destruct (if is_nil b then stack m else b :: stack m) as [|[|st q] rest]; [discriminate| |].
  - (* pop: the option group is still waiting and the same choice is re-applied *)
    cbn [last_opts mk]. rewrite Ec. discriminate.
  - (* a statement never answers with a panic, and after it no option group is waiting *)
    destruct (exec_stmt_spec d st s0) as (_ & K & _).
    destruct (exec_stmt d st s0) as [[r lo|[b'|]|b'|] s3]; cbn [apply_ctl fst last_opts mk chosen_body] in *;
      try discriminate.
    intros ->. exact K.
Qed.

Lemma choice_ok_none m c : last_opts m = None -> choice_ok m c.
Proof. intros H. unfold choice_ok. rewrite H. discriminate. Qed.

Theorem after_error_no_choice_pending d : forall fm m c m',
  pending (dat m) = None -> next d fm m c = (NErr, m') -> last_opts m' = None.
Proof.
  intros fm m c m' Hp H.
  refine (next_inv d c (fun m => pending (dat m) = None) (fun r m' => r = NErr -> last_opts m' = None)
                   _ _ fm m _ m' Hp H eq_refl); [discriminate|].
  clear. intros m Hp. unfold next_step. rewrite (poll_none _ Hp).
  destruct (chosen_body (last_opts m) c) as [b|]; [|discriminate].
  destruct (if is_nil b then stack m else b :: stack m) as [|[|st q] rest]; [discriminate|exact Hp|].
  (* a statement that lets Next go on leaves nothing pending; one that answers with an error leaves
     no option group waiting *)
  destruct (exec_stmt_spec d st (dat m)) as (_ & K & P). specialize (P Hp).
  destruct (exec_stmt d st (dat m)) as [[r lo|[b'|]|b'|] s3]; cbn [apply_ctl fst snd dat last_opts mk] in *;
    try (destruct P as [P|P]; [discriminate|exact P]); [|discriminate].
  intros ->. destruct lo; [destruct K|reflexivity].
Qed.

Lemma null_is_error v e : eval v ENull e = (Fail, e).
Proof. reflexivity. Qed.

Lemma unknown_variable_is_error v x e : st_get (rvars v) x = None -> eval v (EVar x) e = (Fail, e).
Proof. intros H. cbn. rewrite H. reflexivity. Qed.

Lemma unknown_function_is_error v f args e :
  call_probe f args e = None -> call_builtin v f args e = None -> call_function v f args e = (Fail, e).
Proof. intros H1 H2. unfold call_function. rewrite H1, H2. reflexivity. Qed.

Lemma no_value_function_is_error v args e :
  fst (eval v (ECall (STR "noret") (map EVal args)) e) = Fail.
Proof. rewrite eval_call_args, eval_list_vals. reflexivity. Qed.

Lemma dice_out_of_domain_is_error v n e : (to_int64 n <? 1)%Z = true ->
  call_builtin v (STR "dice") [VNum n] e = Some (Fail, e).
Proof. intros H. cbn. rewrite H. reflexivity. Qed.

Lemma random_range_empty_is_error v a b e : (to_int64 b <? to_int64 a)%Z = true ->
  call_builtin v (STR "random_range") [VNum a; VNum b] e = Some (Fail, e).
Proof. intros H. cbn. rewrite H. reflexivity. Qed.

Lemma unknown_node_is_error d s x : find_node d x = None ->
  fst (exec_jump d (EVal (VStr x)) s) = None.
Proof. intros H. unfold exec_jump, eval_in. cbn. rewrite H. reflexivity. Qed.

Lemma unknown_command_is_error s name args :
  str_eqb name (STR "stop") = false -> mem_str name (hcmds s) = false -> str_eqb name (STR "wait") = false ->
  fst (exec_command (EVal (VStr name) :: map EVal args) s) = CmdErr.
Proof.
  intros H1 H2 H3. unfold exec_command. rewrite (eval_list_vals _ (VStr name :: args)).
  cbn [hcmds upd_fe]. rewrite H1, H2, H3. reflexivity.
Qed.

(* D7 (known finding): a node whose only path is a jump to itself never yields - the model runs out
   of any fuel, the Go code recurses without bound *)
Definition self_jump_dialogue : dialogue :=
  [ {| headers := [(STR "title", STR "A")]; body := [SJump (EVal (VStr (STR "A")))] |} ].

Theorem jump_cycle_diverges : forall fuel s,
  pending s = None ->
  fst (next self_jump_dialogue fuel (mk [[SJump (EVal (VStr (STR "A")))]] None s) 0) = NFuel.
Proof.
  induction fuel as [|f IH]; intros s Hp; [reflexivity|].
  cbn [next dat stack last_opts mk]. rewrite (poll_none _ Hp). cbn [chosen_body is_nil].
  unfold exec_jump, eval_in. cbn [eval]. cbn [find_node self_jump_dialogue].
  change (str_eqb (title {| headers := [(STR "title", STR "A")]; body := [SJump (EVal (VStr (STR "A")))] |}) (STR "A")) with true.
  cbn iota. apply IH. cbn. exact Hp.
Qed.

Theorem pending_is_inert d fm m c k r : pending (dat m) = Some (S k, r) ->
  next d (S fm) m c = (NWait, mk (stack m) (last_opts m) (upd_pending (dat m) (Some (k, r)))).
Proof. intros H. rewrite next_poll. unfold poll. rewrite H. reflexivity. Qed.

Theorem pending_inert_frame s k r : pending s = Some (S k, r) ->
  let s' := snd (poll s) in
  vars s' = vars s /\ slog s' = slog s /\ fe s' = fe s /\ visits s' = visits s /\ cur s' = cur s /\
  sched s' = sched s.
Proof. intros H. unfold poll. rewrite H. cbn. repeat split. Qed.

Theorem resume_after_completion d fm m c : pending (dat m) = Some (O, CNil) ->
  next d (S fm) m c = next d (S fm) (mk (stack m) (last_opts m) (upd_pending (dat m) None)) c.
Proof. intros H. rewrite next_poll. unfold poll at 1. rewrite H. reflexivity. Qed.

Theorem error_surfaced_once d fm m c : pending (dat m) = Some (O, CErr) ->
  next d (S fm) m c = (NErr, mk (stack m) (last_opts m) (upd_pending (dat m) None)).
Proof. intros H. rewrite next_poll. unfold poll. rewrite H. reflexivity. Qed.

Theorem handler_exactly_once s name args :
  str_eqb name (STR "stop") = false -> mem_str name (hcmds s) = true ->
  hlog (fe (snd (exec_command (EVal (VStr name) :: map EVal args) s))) = HCmd name args :: hlog (fe s).
Proof.
  intros H1 H2. unfold exec_command. rewrite (eval_list_vals _ (VStr name :: args)).
  cbn [hcmds upd_fe sched]. rewrite H1, H2.
  destruct (sched s) as [|[[|k] [|]] rest]; reflexivity.
Qed.

Theorem stop_never_dispatched s args :
  exec_command (EVal (VStr (STR "stop")) :: map EVal args) s = (CmdStop, s).
Proof.
  unfold exec_command. rewrite (eval_list_vals _ (VStr (STR "stop") :: args)). destruct s; reflexivity.
Qed.

(* restoring into ANY receiver state gives the node-entry state recorded in the snapshot; nothing
   of the receiver's control state (stack, waiting choice, pending command) or variables survives *)
Theorem restore_resumes d m sn m' : restore_at d m sn = (true, m') ->
  exists n, find_node d (snode sn) = Some n /\
    stack m' = [body n] /\ last_opts m' = None /\ pending (dat m') = None /\
    cur (dat m') = snode sn /\ visits (dat m') = svisits sn /\ vsnap (dat m') = svars sn /\
    vars (dat m') = fold_left (fun st kv => st_set st (fst kv) (snd kv)) (svars sn) empty_store.
Proof.
  unfold restore_at. destruct (find_node d (snode sn)) as [n|] eqn:E; [|discriminate].
  intros H. inversion H; subst. exists n. cbn. rewrite (find_node_title _ _ _ E). repeat split.
Qed.

Theorem restore_receiver_independent d m1 m2 sn m1' m2' :
  restore_at d m1 sn = (true, m1') -> restore_at d m2 sn = (true, m2') ->
  stack m1' = stack m2' /\ last_opts m1' = last_opts m2' /\ pending (dat m1') = pending (dat m2') /\
  vars (dat m1') = vars (dat m2') /\ cur (dat m1') = cur (dat m2') /\ visits (dat m1') = visits (dat m2') /\
  vsnap (dat m1') = vsnap (dat m2').
Proof.
  unfold restore_at. destruct (find_node d (snode sn)) as [n|]; [|discriminate].
  intros H1 H2. inversion H1; inversion H2; subst. cbn. repeat split.
Qed.

Theorem snapshot_after_restore d m sn m' : restore_at d m sn = (true, m') -> take_snapshot (dat m') = sn.
Proof.
  intros H. destruct (restore_resumes d m sn m' H) as (n & _ & _ & _ & _ & Hc & Hv & Hs & _).
  unfold take_snapshot. rewrite Hc, Hv, Hs. destruct sn; reflexivity.
Qed.

Theorem restore_unknown_node d m sn : find_node d (snode sn) = None -> restore_at d m sn = (false, m).
Proof. intros H. unfold restore_at. rewrite H. reflexivity. Qed.

(* the snapshot's contents only change at node entries: every primitive but the jump keeps
   (checkpoint, current node, visit counts) *)
Definition snap_fields (s : dstate) := (vsnap s, cur s, visits s).

Theorem snapshot_only_changes_at_jumps_line s l : snap_fields (snd (render_line s l)) = snap_fields s.
Proof. destruct (render_line_ok s l) as [_ E]. rewrite E. reflexivity. Qed.

Theorem snapshot_only_changes_at_jumps_set x op e s : snap_fields (snd (exec_set x op e s)) = snap_fields s.
Proof. destruct (exec_set_cases x op e s) as [e1 [->|[r ->]]]; reflexivity. Qed.

Theorem jump_takes_checkpoint d e s b s' : exec_jump d e s = (Some b, s') ->
  vsnap s' = st_values (vars s') /\ exists n, find_node d (cur s') = Some n /\ b = body n.
Proof.
  rewrite exec_jump_shape. cbn zeta. destruct (fst (eval_in s e)) as [[n0|b0|t]| |]; try discriminate.
  destruct (find_node d t) as [n|] eqn:E; [|discriminate].
  intros H. inversion H; subst. split; [reflexivity|].
  exists n. cbn [enter cur]. rewrite (find_node_title _ _ _ E). auto.
Qed.
