(* C04, display forms (variable/value.go, Value.ToString after the repair of D22): a number whose
   value is an integer in the int64 range is displayed as that integer's decimal digits - no decimal
   point, no exponent; booleans as True / False; strings verbatim. *)
From Coq Require Import Reals List.
From Flocq Require Import Core BinarySingleNaN.
From YS Require Import Base.Sexp Num.F64 Yarn.Ast Yarn.Value Proofs.F64Facts.
Import ListNotations.
Local Open Scope R_scope.

(* float64(int64(n)) for an integral n whose truncation fits: the conversion of an integer that n
   itself represents, hence n again *)
Lemma of_Z_trunc_integral (n : f64) :
  B2R n = IZR (Btrunc n) -> B2R (of_Z (Btrunc n)) = B2R n /\ is_finite (of_Z (Btrunc n)) = true.
Proof.
  intros Hi. rewrite Hi. apply of_Z_exact; rewrite <- Hi; [apply generic_format_B2R|apply abs_B2R_lt_emax].
Qed.

Theorem integral_number_displayed_as_integer (n : f64) :
  is_finite n = true -> B2R n = IZR (Btrunc n) -> (- two63 <= Btrunc n < two63)%Z ->
  num_to_string n = z_to_str (Btrunc n).
Proof.
  intros Fn Hi Hr. unfold num_to_string.
  rewrite (to_int64_trunc n Fn Hr).
  destruct (of_Z_trunc_integral n Hi) as [E F].
  unfold feqb. rewrite (Beqb_correct prec emax n (of_Z (Btrunc n)) Fn F).
  rewrite E. rewrite Req_bool_true by reflexivity. reflexivity.
Qed.

Theorem booleans_and_strings_display (b : bool) (s : str) :
  to_string (VBool b) = (if b then STR "True" else STR "False") /\ to_string (VStr s) = s.
Proof. split; [destruct b; reflexivity|reflexivity]. Qed.

Lemma uint_digits_are_digits u : Forall (fun c => is_digit c = true) (uint_digits u).
Proof. induction u; cbn; constructor; auto. Qed.

Lemma nonempty0_digits ds : Forall (fun c => is_digit c = true) ds ->
  nonempty0 ds <> [] /\ Forall (fun c => is_digit c = true) (nonempty0 ds).
Proof. intros H. destruct ds; cbn; [split; [discriminate|repeat constructor]|split; [discriminate|exact H]]. Qed.

Lemma z_to_str_shape z :
  exists ds, ds <> [] /\ Forall (fun c => is_digit c = true) ds /\ (z_to_str z = ds \/ z_to_str z = 45%N :: ds).
Proof.
  unfold z_to_str. destruct (Z.to_int z) as [u|u]; exists (nonempty0 (uint_digits u));
    destruct (nonempty0_digits _ (uint_digits_are_digits u)) as [N D]; auto.
Qed.

(* in the property's words: an integral number is shown as an optional minus sign and decimal digits *)
Theorem integral_number_has_no_decimal_point (n : f64) :
  is_finite n = true -> B2R n = IZR (Btrunc n) -> (- two63 <= Btrunc n < two63)%Z ->
  exists ds, ds <> [] /\ Forall (fun c => is_digit c = true) ds /\
             (num_to_string n = ds \/ num_to_string n = 45%N :: ds).
Proof.
  intros Fn Hi Hr. rewrite (integral_number_displayed_as_integer n Fn Hi Hr). apply z_to_str_shape.
Qed.

Example display_examples :
  num_to_string (of_Z 3) = STR "3" /\ num_to_string (of_Z (-12)) = STR "-12" /\
  num_to_string (of_bits 4609434218613702656) = STR "1.5" /\ num_to_string (of_Z 0) = STR "0".
Proof. vm_compute. repeat split. Qed.
