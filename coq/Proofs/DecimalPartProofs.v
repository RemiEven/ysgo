(* C19: integer(x) + decimal(x) = x exactly, for EVERY finite double: the fractional part x - trunc(x)
   is itself a double (no rounding in the subtraction), and adding it back to trunc(x) gives x. *)
From Coq Require Import Reals Lia Lra.
From Flocq Require Import Core BinarySingleNaN Sterbenz.
From YS Require Import Num.F64 Yarn.Eval Proofs.F64Facts Proofs.BuiltinProofs.
Local Open Scope R_scope.

Lemma Ztrunc_cases r :
  0 <= IZR (Ztrunc r) <= r /\ r < IZR (Ztrunc r) + 1 \/ r <= IZR (Ztrunc r) <= 0 /\ IZR (Ztrunc r) - 1 < r.
Proof.
  destruct (Rle_or_lt 0 r) as [P|N]; [left; rewrite Ztrunc_floor by exact P|right; rewrite Ztrunc_ceil by lra].
  - pose proof (Zfloor_lb r). pose proof (Zfloor_ub r). pose proof (IZR_le _ _ (Zfloor_lub 0 r P)). lra.
  - pose proof (Zceil_ub r). pose proof (Zceil_lb r). pose proof (IZR_le _ _ (Zceil_glb 0 r (Rlt_le _ _ N))). lra.
Qed.

Lemma trunc_abs_le r : Rabs (IZR (Ztrunc r)) <= Rabs r.
Proof. destruct (Ztrunc_cases r) as [[H _]|[H _]]; [rewrite !Rabs_pos_eq by lra|rewrite !Rabs_left1 by lra]; lra. Qed.

Lemma frac_abs_lt_1 r : Rabs (r - IZR (Ztrunc r)) < 1.
Proof. apply Rabs_def1; destruct (Ztrunc_cases r); lra. Qed.

(* the fractional part of a double is a double *)
Lemma frac_format (x : f64) : format (B2R x - IZR (Ztrunc (B2R x))).
Proof.
  set (X := B2R x). set (T := IZR (Ztrunc X)).
  destruct (Req_dec T 0) as [T0|NZ].
  - rewrite T0, Rminus_0_r. apply generic_format_B2R.
  - assert (FT : format T).
    { unfold T, X. rewrite <- trunc_value. apply generic_format_B2R. }
    replace (X - T) with (X + - T) by ring.
    (* |X - T| <= min |X| |T|, so the difference lies on the grids of both operands *)
    apply generic_format_plus_weak.
    + apply FLT_exp_valid. reflexivity.
    + apply FLT_exp_monotone.
    + apply generic_format_B2R.
    + apply generic_format_opp. exact FT.
    + replace (X + - T) with (X - T) by ring. rewrite Rabs_Ropp.
      assert (One : 1 <= Rabs T).
      { unfold T. rewrite <- abs_IZR. apply IZR_le.
        assert (Ztrunc X <> 0%Z) by (intro E; apply NZ; unfold T; rewrite E; reflexivity). lia. }
      pose proof (frac_abs_lt_1 X) as L. fold T in L.
      pose proof (trunc_abs_le X) as M. fold T in M.
      apply Rmin_glb; lra.
Qed.

Lemma ftrunc_finite (x : f64) : is_finite x = true -> is_finite (ftrunc x) = true.
Proof. intros <-. apply nearbyint_finite. Qed.

Theorem decimal_exact (x : f64) : is_finite x = true ->
  is_finite (f_decimal x) = true /\ B2R (f_decimal x) = B2R x - IZR (Ztrunc (B2R x)).
Proof.
  intros Fx. destruct (fsub_correct x (ftrunc x) Fx (ftrunc_finite x Fx)) as [E F];
    change (B2R (ftrunc x)) with (R_of (ftrunc x)) in *; rewrite trunc_value in *; unfold R_of in *;
    rewrite rnd_exact in * by apply frac_format.
  - apply Rlt_trans with (1 := frac_abs_lt_1 _). apply (bpow_lt radix2 0). reflexivity.
  - split; assumption.
Qed.

Theorem integer_plus_decimal (x : f64) : is_finite x = true ->
  is_finite (fadd (ftrunc x) (f_decimal x)) = true /\ B2R (fadd (ftrunc x) (f_decimal x)) = B2R x.
Proof.
  intros Fx. destruct (decimal_exact x Fx) as (Fd & Vd).
  assert (Hsum : B2R (ftrunc x) + B2R (f_decimal x) = B2R x).
  { rewrite Vd. change (B2R (ftrunc x)) with (R_of (ftrunc x)). rewrite trunc_value. unfold R_of. ring. }
  destruct (fadd_correct _ _ (ftrunc_finite x Fx) Fd) as [E F];
    rewrite Hsum, rnd_exact in * by apply generic_format_B2R; [apply abs_B2R_lt_emax|split; assumption].
Qed.

Theorem decimal_range (x : f64) : is_finite x = true ->
  Rabs (B2R (f_decimal x)) < 1 /\ (0 <= B2R x -> 0 <= B2R (f_decimal x)) /\ (B2R x <= 0 -> B2R (f_decimal x) <= 0).
Proof.
  intros Fx. destruct (decimal_exact x Fx) as (_ & Vd). rewrite Vd. split; [apply frac_abs_lt_1|].
  destruct (Ztrunc_cases (B2R x)); split; lra.
Qed.
