(* Association lists standing for Go maps: lookup after update / delete. *)
From Coq Require Import List.
From YS Require Import Base.Sexp Yarn.Ast.
Import ListNotations.

Lemma aget_aset {V} (m : alist V) k v n :
  aget (aset m k v) n = if str_eqb k n then Some v else aget m n.
Proof.
  induction m as [|[k' v'] m IH]; cbn [aset aget].
  - destruct (str_eqb k n); reflexivity.
  - destruct (str_eqb k' k) eqn:E; cbn [aget].
    + apply str_eqb_eq in E. subst k'. destruct (str_eqb k n); reflexivity.
    + rewrite IH. destruct (str_eqb k' n) eqn:E2; [|reflexivity].
      apply str_eqb_eq in E2. subst k'. rewrite str_eqb_sym, E. reflexivity.
Qed.

Lemma aget_adel {V} (m : alist V) k n :
  aget (adel m k) n = if str_eqb k n then None else aget m n.
Proof.
  induction m as [|[k' v'] m IH]; cbn [adel aget].
  - destruct (str_eqb k n); reflexivity.
  - destruct (str_eqb k' k) eqn:E.
    + rewrite IH. apply str_eqb_eq in E. subst k'. destruct (str_eqb k n); reflexivity.
    + cbn [aget]. rewrite IH. destruct (str_eqb k' n) eqn:E2; [|reflexivity].
      apply str_eqb_eq in E2. subst k'. rewrite str_eqb_sym, E. reflexivity.
Qed.

Lemma aget_aset_same {V} (m : alist V) k v : aget (aset m k v) k = Some v.
Proof. rewrite aget_aset, str_eqb_refl. reflexivity. Qed.

Lemma aget_adel_same {V} (m : alist V) k : aget (adel m k) k = None.
Proof. rewrite aget_adel, str_eqb_refl. reflexivity. Qed.
