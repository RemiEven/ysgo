(* C13 for the documents without properties: plain text, escaped brackets, open / close / close-all
   markers.  They are the documents of Proofs/MarkupPropsProofs.v whose open markers carry no property
   ([emb] below); what the theorems say is explained there, and each one here is its instance. *)
From Coq Require Import List ZArith.
From YS Require Import Base.Sexp Yarn.Value Markup.LineParser Proofs.MarkupProofs.
Require YS.Proofs.MarkupPropsProofs.
Module P := YS.Proofs.MarkupPropsProofs.
Import ListNotations.
Local Open Scope Z_scope.

Lemma not_id_61 : is_id_char 61 = false. Proof. exact P.not_id_61. Qed.
Lemma not_space_93 : is_space 93 = false. Proof. reflexivity. Qed.
Lemma not_space_47 : is_space 47 = false. Proof. reflexivity. Qed.

Definition name_ok (n : str) : Prop := n <> [] /\ forallb is_id_char n = true /\ processor_of n = None.

(* "[name]" *)
Lemma parse_marker_open n tl p pos : name_ok n ->
  exists src p', parse_marker {| rest := n ++ 93%N :: tl; sp := p |} pos
    = Some ({| mname := n; mpos := pos; msrc := src; mprops := []; mtype := TOpen |}, {| rest := tl; sp := p' |}).
Proof. exact (P.parse_marker_open n tl p pos). Qed.

(* "[/name]" *)
Lemma parse_marker_close n tl p pos : name_ok n ->
  exists src p', parse_marker {| rest := 47%N :: n ++ 93%N :: tl; sp := p |} pos
    = Some ({| mname := n; mpos := pos; msrc := src; mprops := []; mtype := TClose |}, {| rest := tl; sp := p' |}).
Proof. exact (P.parse_marker_close n tl p pos). Qed.

(* "[/]" *)
Lemma parse_marker_close_all tl p pos :
  exists src p', parse_marker {| rest := 47%N :: 93%N :: tl; sp := p |} pos
    = Some ({| mname := []; mpos := pos; msrc := src; mprops := []; mtype := TCloseAll |}, {| rest := tl; sp := p' |}).
Proof. exact (P.parse_marker_close_all tl p pos). Qed.

Inductive item := IText (t : str) | IBr (c : N) | IOpen (n : str) | IClose (n : str) | ICloseAll.

Definition render1 (i : item) : str :=
  match i with
  | IText t => t
  | IBr c => [92%N; c]
  | IOpen n => 91%N :: n ++ [93%N]
  | IClose n => 91%N :: 47%N :: n ++ [93%N]
  | ICloseAll => [91%N; 47%N; 93%N]
  end.
Definition render (its : list item) : str := flat_map render1 its.
Definition text1 (i : item) : str := match i with IText t => t | IBr c => [c] | _ => [] end.
Definition text (its : list item) : str := flat_map text1 its.

Definition item_ok (i : item) : Prop :=
  match i with
  | IText t => forallb plain_rune t = true            (* neither '[' nor a backslash *)
  | IBr c => c = 91%N \/ c = 93%N
  | IOpen n | IClose n => name_ok n
  | ICloseAll => True
  end.

Definition amark := (str * Z * tagtype)%type.
Fixpoint amarks (its : list item) (p : Z) : list amark :=
  match its with
  | [] => []
  | IText t :: r => amarks r (p + Z.of_nat (length t))
  | IBr _ :: r => amarks r (p + 1)
  | IOpen n :: r => (n, p, TOpen) :: amarks r p
  | IClose n :: r => (n, p, TClose) :: amarks r p
  | ICloseAll :: r => ([], p, TCloseAll) :: amarks r p
  end.
Definition mrel (m : marker) (a : amark) : Prop :=
  mname m = fst (fst a) /\ mpos m = snd (fst a) /\ mtype m = snd a /\ mprops m = [].

Definition emb (i : item) : P.item :=
  match i with
  | IText t => P.IText t
  | IBr c => P.IBr c
  | IOpen n => P.IOpen n [] (n ++ [93%N])
  | IClose n => P.IClose n
  | ICloseAll => P.ICloseAll
  end.
Definition aemb (a : amark) : P.amark := (fst (fst a), snd (fst a), snd a, []).

Lemma render_emb its : P.render (map emb its) = render its.
Proof.
  unfold P.render, render. induction its as [|i its IH]; [reflexivity|].
  cbn [map flat_map]. rewrite IH. destruct i; reflexivity.
Qed.

Lemma text_emb its : P.text (map emb its) = text its.
Proof.
  unfold P.text, text. induction its as [|i its IH]; [reflexivity|].
  cbn [map flat_map]. rewrite IH. destruct i; reflexivity.
Qed.

Lemma item_ok_emb its : Forall item_ok its -> Forall P.item_ok (map emb its).
Proof.
  induction 1 as [|i its Hi _ IH]; cbn [map]; constructor; [|exact IH].
  destruct i; try exact Hi.
  split; [exact Hi|]. split; [reflexivity|]. exact (P.plain_form_written n [] Hi (Forall_nil _)).
Qed.

Lemma selfs_ok_emb its R : P.selfs_ok (map emb its) R.
Proof. induction its as [|[] its IH]; cbn [map emb P.selfs_ok]; auto. Qed.

Lemma amarks_emb its : forall p, P.amarks (map emb its) p = map aemb (amarks its p).
Proof. induction its as [|[] its IH]; intros p; cbn [map emb P.amarks amarks]; rewrite ?IH; reflexivity. Qed.

(* with aemb, mrel here is P.mrel there, up to computation; likewise orel and arel below with eemb *)
Lemma Forall2_unmap_r {A B B'} (Q : A -> B' -> Prop) (f : B -> B') l1 : forall l2,
  Forall2 Q l1 (map f l2) -> Forall2 (fun a b => Q a (f b)) l1 l2.
Proof. induction l1 as [|a l1 IH]; intros [|b l2] H; inversion H; subst; constructor; auto. Qed.

Lemma main_loop_items : forall its R f p bld blen ms last,
  Forall item_ok its -> (length (render its ++ R) < f)%nat ->
  exists p' last' ms', Forall2 mrel ms' (amarks its blen) /\
    main_loop f {| rest := render its ++ R; sp := p |} bld blen ms last
    = main_loop (S (length R)) {| rest := R; sp := p' |} (rev (text its) ++ bld)
                (blen + Z.of_nat (length (text its))) (ms ++ ms') last'.
Proof.
  intros its R f p bld blen ms last Hok Hf.
  pose proof (P.main_loop_items (map emb its) R f p bld blen ms last (item_ok_emb _ Hok) (selfs_ok_emb _ _)) as H.
  rewrite render_emb, text_emb in H. destruct (H Hf) as (p' & l' & ms' & F & E).
  rewrite amarks_emb in F. exists p', l', ms'. split; [exact (Forall2_unmap_r _ aemb _ _ F)|exact E].
Qed.

Fixpoint find_last_e (name : str) (l : list (str * str)) (i : nat) (best : option nat) : option nat :=
  match l with
  | [] => best
  | e :: r => find_last_e name r (S i) (if str_eqb (fst e) name then Some i else best)
  end.

(* as P.enclosed (described there); an entry is (name, enclosed text) *)
Fixpoint enclosed (its : list item) (open : list (str * str)) (done_ : list (str * str)) : option (list (str * str)) :=
  match its with
  | [] => Some done_
  | IOpen n :: r => enclosed r (open ++ [(n, [])]) done_
  | IClose n :: r =>
      match find_last_e n open 0 None with
      | None => None
      | Some i => match nth_error open i with
                  | Some e => enclosed r (remove_nth open i) (done_ ++ [e])
                  | None => None
                  end
      end
  | ICloseAll :: r => enclosed r [] (done_ ++ open)
  | i :: r => enclosed r (map (fun e => (fst e, snd e ++ text1 i)) open) done_
  end.

Local Open Scope nat_scope.

Definition orel (pre : str) (m : marker) (e : str * str) : Prop :=
  mname m = fst e /\ mprops m = [] /\ length (snd e) <= length pre /\
  mpos m = Z.of_nat (length pre - length (snd e)) /\ skipn (length pre - length (snd e)) pre = snd e.

Definition arel (pre : str) (a : attribute) (e : str * str) : Prop :=
  aname a = fst e /\ aprops a = [] /\
  exists q, apos a = Z.of_nat q /\ alen a = Z.of_nat (length (snd e)) /\ q + length (snd e) <= length pre /\
            firstn (length (snd e)) (skipn q pre) = snd e.

Definition eemb (e : str * str) : P.entry := (fst e, [], snd e).

Lemma find_last_e_emb n : forall l i b, P.find_last_e n (map eemb l) i b = find_last_e n l i b.
Proof. induction l as [|e l IH]; intros i b; cbn [map P.find_last_e find_last_e]; [reflexivity|apply IH]. Qed.

Lemma remove_nth_map {A B} (f : A -> B) : forall l i, remove_nth (map f l) i = map f (remove_nth l i).
Proof. induction l as [|x l IH]; intros [|i]; cbn [map remove_nth]; rewrite ?IH; reflexivity. Qed.

Lemma enclosed_emb its : forall op dn,
  P.enclosed (map emb its) (map eemb op) (map eemb dn) = option_map (map eemb) (enclosed its op dn).
Proof.
  induction its as [|i its IH]; intros op dn; [reflexivity|].
  destruct i as [t|c|n|n|]; cbn [map emb P.enclosed enclosed].
  - rewrite <- IH, !map_map. reflexivity.
  - rewrite <- IH, !map_map. reflexivity.
  - rewrite <- IH, map_app. reflexivity.
  - rewrite find_last_e_emb. destruct (find_last_e n op 0 None) as [k|]; [|reflexivity].
    rewrite nth_error_map. destruct (nth_error op k) as [e|]; [|reflexivity]. cbn [option_map].
    rewrite <- IH, remove_nth_map, map_app. reflexivity.
  - rewrite <- IH, map_app. reflexivity.
Qed.

Lemma build_attrs_enclosed : forall its pre ms unclosed acc open done_,
  Forall item_ok its ->
  Forall2 mrel ms (amarks its (Z.of_nat (length pre))) ->
  Forall2 (orel pre) unclosed open -> Forall2 (arel pre) acc done_ ->
  match enclosed its open done_ with
  | Some final => exists attrs, build_attrs ms unclosed acc = Some attrs /\ Forall2 (arel (pre ++ text its)) attrs final
  | None => build_attrs ms unclosed acc = None
  end.
Proof.
  intros its pre ms unclosed acc open done_ Hok Hms Hun Hacc.
  pose proof (P.build_attrs_enclosed (map emb its) pre ms unclosed acc (map eemb open) (map eemb done_)
                (item_ok_emb _ Hok)) as H.
  rewrite amarks_emb, enclosed_emb, text_emb in H.
  specialize (H (Forall2_map_r _ _ aemb _ _ (fun _ _ M => M) Hms)
                (Forall2_map_r _ _ eemb _ _ (fun _ _ M => M) Hun)
                (Forall2_map_r _ _ eemb _ _ (fun _ _ M => M) Hacc)).
  destruct (enclosed its open done_); cbn [option_map] in H; [|exact H].
  destruct H as (attrs & E & F). exists attrs. split; [exact E|exact (Forall2_unmap_r _ eemb _ _ F)].
Qed.

Definition no_edge_space (t : str) : Prop := trim_left t = t /\ trim_left (rev t) = rev t.

Local Open Scope Z_scope.

Theorem document_parse its : Forall item_ok its -> no_edge_space (text its) ->
  match enclosed its [] [] with
  | Some encl => exists attrs0, Forall2 (arel (text its)) attrs0 encl /\
      parse_markup (render its) =
      Some (text its, sort_attrs attrs0 ++ if has_char attrs0 then [] else char_attr (text its))
  | None => parse_markup (render its) = None
  end.
Proof.
  intros Hok Hedge. pose proof (P.document_parse (map emb its) (item_ok_emb _ Hok) (selfs_ok_emb _ _)) as H.
  rewrite render_emb, text_emb in H. rewrite (enclosed_emb its [] [] : P.enclosed _ [] [] = _) in H.
  specialize (H Hedge). destruct (enclosed its [] []); cbn [option_map] in H; [|exact H].
  destruct H as (attrs0 & F & E). exists attrs0. split; [exact (Forall2_unmap_r _ eemb _ _ F)|exact E].
Qed.

Lemma arel_reads_as T a e : arel T a e -> P.reads_as T a (eemb e).
Proof. exact (P.arel_reads_as T a (eemb e)). Qed.

Theorem markup_document_roundtrip its :
  Forall item_ok its ->
  forallb (fun c => negb (N.eqb c 58)) (text its) = true ->
  no_edge_space (text its) ->
  match enclosed its [] [] with
  | Some encl =>
      exists attrs, parse_markup (render its) = Some (text its, attrs) /\
        length attrs = length encl /\
        (forall e, In e encl -> exists a, In a attrs /\ aname a = fst e /\ aprops a = [] /\
                                          text_for_attribute (text its) a = Some (snd e)) /\
        (forall a, In a attrs -> exists e, In e encl /\ aname a = fst e /\ aprops a = [] /\
                                           text_for_attribute (text its) a = Some (snd e))
  | None => parse_markup (render its) = None
  end.
Proof.
  intros Hok Hcolon Hedge. pose proof (document_parse its Hok Hedge) as H.
  destruct (enclosed its [] []) as [encl|]; [|exact H]. destruct H as (attrs0 & F & E).
  exists (sort_attrs attrs0).
  split; [|exact (sorted_matches _ (fun a e => P.reads_as (text its) a (eemb e)) _ _ (arel_reads_as _) F)].
  rewrite E, (char_attr_none _ Hcolon). destruct (has_char attrs0); rewrite app_nil_r; reflexivity.
Qed.
