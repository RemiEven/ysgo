(* The statement parser model reads every written program back.

   [wstmt] is what can be written: lines, option groups (with or without the blank-line token after
   them), set / declare (with or without `as type`) / call / jump by name or by expression /
   generic commands as their text pieces and inline expressions, if / elseif / else chains, and
   INDENT ... DEDENT blocks around any run of statements, at any depth.  [meaning] is the dialogue the
   listener is meant to build for it (a block is the statements in it, <<else>> is the clause `true`,
   <<jump Name>> is the jump to the string "Name", a command is its pieces put through rearrange, the
   type of a declaration is dropped).  [pws] writes the token sequence.

   Theorem parse_written: for every written statement sequence that is well formed (texts of a line
   non-empty and not adjacent, an option group that is not followed by its blank-line token is not
   directly followed by another option nor - when its last option has no body - by an indented block;
   no hashtag directly after a generic command; the value of a declaration an atom or a call),
   for every way of writing its expressions that the expression parser reads back ([er], a parameter),
   and for all sufficient fuel, parse_stmts (pws ws ++ rest) = (meaning ws, rest) whenever no statement
   starts at [rest].  The file ends with parse_written_node: one node with one header, the sufficiency of the
   model's fuel a premise.  Whole scripts, and that the fuel suffices, are in Proofs/StmtParserTop.v. *)
From Coq Require Import List NArith Lia.
From YS Require Import Base.Sexp Yarn.Ast Generated.TokenTable Syntax.ExprParser Syntax.CommandText Syntax.StmtParser.
Import ListNotations.

(* parse_stmts (S f) by the form of its input - no statement starts, an indented block, any other statement
   (parse_stmts_step below): with ts abstract the 86-way matches copy the default branch, and one equation
   for the whole body is slow to check. *)
Lemma parse_stmts_stop f ts : starts_statement ts = false -> parse_stmts (S f) ts = Some ([], ts).
Proof.
  intros H. destruct ts as [|[k s] r]; [reflexivity|]. destruct k; try discriminate H; try reflexivity.
  destruct r as [|[k2 s2] r2]; [reflexivity|]. destruct k2; try discriminate H; reflexivity.
Qed.

Lemma parse_stmts_block f s r :
  parse_stmts (S f) ((K_INDENT, s) :: r) =
  match parse_stmts f r with
  | Some (inner, (K_DEDENT, _) :: r2) =>
      match parse_stmts f r2 with
      | Some (rest, r3) => Some (inner ++ rest, r3)
      | None => None
      end
  | _ => None
  end.
Proof. reflexivity. Qed.

(* The body of parse_line after its text, named: a rewrite under the unfolded body, with the list abstract,
   retypes every branch of the 86-way matches. *)
Definition line_tail (els : list telem) (r : list T) : option (line * list T) :=
  let after_cond (c : option expr) (r1 : list T) :=
    let '(tags, r2) := parse_hashtags r1 in
    match r2 with
    | (K_NEWLINE, _) :: r3 => Some ({| ltext := els; lcond := c; ltags := tags |}, r3)
    | _ => None
    end in
  match r with
  | (K_COMMAND_START, _) :: (K_COMMAND_IF, _) :: r0 =>
      match parse_expr_span r0 with
      | Some (c, (K_COMMAND_END, _) :: r1) => after_cond (Some c) r1
      | _ => None
      end
  | _ => after_cond None r
  end.

Lemma parse_line_tail ts els r : parse_ftext (S (length ts)) ts [] = Some (els, r) -> parse_line ts = line_tail els r.
Proof.
  intros H. change (parse_line ts) with (match parse_ftext (S (length ts)) ts [] with Some (els, r) => line_tail els r | None => None end).
  rewrite H. reflexivity.
Qed.

Lemma line_tail_cond els c tags s1 s2 s3 s4 r0 r1 r3 :
  parse_expr_span r0 = Some (c, (K_COMMAND_END, s3) :: r1) -> parse_hashtags r1 = (tags, (K_NEWLINE, s4) :: r3) ->
  line_tail els ((K_COMMAND_START, s1) :: (K_COMMAND_IF, s2) :: r0) = Some ({| ltext := els; lcond := Some c; ltags := tags |}, r3).
Proof. intros He Hh. cbv beta iota zeta delta [line_tail]. rewrite He. cbv beta iota. rewrite Hh. reflexivity. Qed.

Lemma line_tail_plain els tags s r r3 :
  (match r with (K_COMMAND_START, _) :: _ => False | _ => True end) -> parse_hashtags r = (tags, (K_NEWLINE, s) :: r3) ->
  line_tail els r = Some ({| ltext := els; lcond := None; ltags := tags |}, r3).
Proof.
  intros Hk Hh.
  assert (E : line_tail els r = match parse_hashtags r with
                                | (tags, (K_NEWLINE, _) :: r3) => Some ({| ltext := els; lcond := None; ltags := tags |}, r3)
                                | _ => None end)
    by (destruct r as [|[[] ?] ?]; try reflexivity; contradiction).
  rewrite E, Hh. reflexivity.
Qed.

Lemma flat_map_len {A B} (p : A -> list B) l : (forall x, p x <> []) -> length l <= length (flat_map p l).
Proof.
  intros H. induction l as [|x l IH]; [apply le_n|]. cbn [flat_map length]. rewrite app_length.
  specialize (H x). destruct (p x); [contradiction|]. cbn [length]. lia.
Qed.

Global Opaque parse_line parse_expr_span parse_hashtags take_etoks parse_expression rearrange parse_ctext.

Inductive wstmt :=
| WLine (l : line)
| WOpts (os : list (line * list wstmt)) (blank : bool)
| WSet (x : str) (op : setop) (e : expr)
| WJumpName (d : str)
| WJumpExpr (e : expr)
| WIf (c : expr) (b : list wstmt) (elifs : list (expr * list wstmt)) (els : option (list wstmt))
| WCmd (els : list relem)
| WCall (f : str) (args : list expr)
| WDeclare (x : str) (v : expr) (ty : option str)
| WBlock (ws : list wstmt).

Fixpoint meaning1 (w : wstmt) : list stmt :=
  let ms := fix ms (ws : list wstmt) : list stmt :=
              match ws with [] => [] | w :: r => meaning1 w ++ ms r end in
  match w with
  | WLine l => [SLine l]
  | WOpts os _ => [SOpts ((fix go (os : list (line * list wstmt)) :=
                             match os with [] => [] | (l, b) :: r => (l, ms b) :: go r end) os)]
  | WSet x op e => [SSet x op e]
  | WJumpName d => [SJump (EVal (VStr d))]
  | WJumpExpr e => [SJump e]
  | WIf c b elifs els =>
      [SIf ((c, ms b) ::
            (fix go (cs : list (expr * list wstmt)) :=
               match cs with [] => [] | (c', b') :: r => (c', ms b') :: go r end) elifs ++
            match els with Some b' => [(EVal (VBool true), ms b')] | None => [] end)]
  | WCmd els => [SCmd (rearrange els [])]
  | WCall f args => [SCall f args]
  | WDeclare x v _ => [SDeclare x v]
  | WBlock ws => ms ws
  end.

Fixpoint meaning (ws : list wstmt) : list stmt :=
  match ws with [] => [] | w :: r => meaning1 w ++ meaning r end.

Fixpoint mopts (os : list (line * list wstmt)) : list (line * list stmt) :=
  match os with [] => [] | (l, b) :: r => (l, meaning b) :: mopts r end.
Fixpoint mclauses (cs : list (expr * list wstmt)) : list (expr * list stmt) :=
  match cs with [] => [] | (c, b) :: r => (c, meaning b) :: mclauses r end.

Lemma meaning1_opts os bl : meaning1 (WOpts os bl) = [SOpts (mopts os)].
Proof. reflexivity. Qed.
Lemma meaning1_if c b elifs els :
  meaning1 (WIf c b elifs els) =
  [SIf ((c, meaning b) :: mclauses elifs ++ match els with Some b' => [(EVal (VBool true), meaning b')] | None => [] end)].
Proof. reflexivity. Qed.
Lemma meaning1_block ws : meaning1 (WBlock ws) = meaning ws.
Proof. reflexivity. Qed.

Local Notation tk k := (k, @nil N) (only parsing).

Definition kind_of_setop (o : setop) : kind :=
  match o with
  | SAssign => K_OPERATOR_ASSIGNMENT | SMulEq => K_OPERATOR_MATHS_MULTIPLICATION_EQUALS
  | SDivEq => K_OPERATOR_MATHS_DIVISION_EQUALS | SModEq => K_OPERATOR_MATHS_MODULUS_EQUALS
  | SAddEq => K_OPERATOR_MATHS_ADDITION_EQUALS | SSubEq => K_OPERATOR_MATHS_SUBTRACTION_EQUALS
  end.

(* the generated listener map reads the assignment tokens back (re-checked against the table the
   translator extracts from the Go source) *)
Lemma setop_roundtrip o : setop_of_kind (kind_of_setop o) = Some o.
Proof. destruct o; reflexivity. Qed.
Lemma setop_not_etok o s : etok_of (kind_of_setop o, s) = None.
Proof. destruct o; reflexivity. Qed.

Ltac norm := cbn [app]; repeat (rewrite <- app_assoc; cbn [app]).

Section Written.
  (* how expressions are written: any token sequence the expression parser reads back *)
  Variable er : expr -> list T.
  Variable ewf : expr -> Prop.
  Definition is_etok (t : T) : Prop := etok_of t <> None.
  Hypothesis er_toks : forall e, Forall is_etok (er e).
  Hypothesis er_parse : forall e, ewf e -> parse_expression (fst (take_etoks (er e))) = Some e.
  Hypothesis er_call : forall f args, ewf (ECall f args) ->
    parse_call_toks (fst (take_etoks (er (ECall f args)))) = Some (f, args).
  Hypothesis er_value : forall v, ewf v -> (exists a, v = expr_of_atom a) \/ (exists f args, v = ECall f args) ->
    parse_value_toks (fst (take_etoks (er v))) = Some v.

  Definition p_hashtags (tags : list str) : list T :=
    flat_map (fun s => [tk K_HASHTAG; (K_HASHTAG_TEXT, s)]) tags.
  Definition p_telem (t : telem) : list T :=
    match t with
    | TText s => [(K_TEXT, s)]
    | TExpr e => tk K_EXPRESSION_START :: er e ++ [tk K_EXPRESSION_END]
    end.
  Definition p_cond (c : option expr) : list T :=
    match c with
    | Some e => tk K_COMMAND_START :: tk K_COMMAND_IF :: er e ++ [tk K_COMMAND_END]
    | None => []
    end.
  Definition p_line (l : line) : list T :=
    flat_map p_telem (ltext l) ++ p_cond (lcond l) ++ p_hashtags (ltags l) ++ [tk K_NEWLINE].
  Definition p_relem (r : relem) : list T :=
    match r with
    | RText s => [(K_COMMAND_TEXT, s)]
    | RExpr e => tk K_COMMAND_EXPRESSION_START :: er e ++ [tk K_EXPRESSION_END]
    end.

  Fixpoint pw (w : wstmt) : list T :=
    let ps := fix ps (ws : list wstmt) : list T :=
                match ws with [] => [] | w :: r => pw w ++ ps r end in
    match w with
    | WLine l => p_line l
    | WOpts os blank =>
        (fix go (os : list (line * list wstmt)) :=
           match os with
           | [] => []
           | (l, b) :: r =>
               tk K_SHORTCUT_ARROW :: p_line l ++
               match b with [] => [] | _ => tk K_INDENT :: ps b ++ [tk K_DEDENT] end ++ go r
           end) os ++ (if blank then [tk K_BLANK_LINE_FOLLOWING_OPTION] else [])
    | WSet x op e =>
        tk K_COMMAND_START :: tk K_COMMAND_SET :: (K_VAR_ID, 36%N :: x) :: tk (kind_of_setop op) :: er e ++ [tk K_COMMAND_END]
    | WJumpName d => [tk K_COMMAND_START; tk K_COMMAND_JUMP; (K_ID, d); tk K_COMMAND_END]
    | WJumpExpr e =>
        tk K_COMMAND_START :: tk K_COMMAND_JUMP :: tk K_EXPRESSION_START :: er e ++ [tk K_EXPRESSION_END; tk K_COMMAND_END]
    | WIf c b elifs els =>
        tk K_COMMAND_START :: tk K_COMMAND_IF :: er c ++ tk K_COMMAND_END :: ps b ++
        (fix go (cs : list (expr * list wstmt)) :=
           match cs with
           | [] => []
           | (c', b') :: r => tk K_COMMAND_START :: tk K_COMMAND_ELSEIF :: er c' ++ tk K_COMMAND_END :: ps b' ++ go r
           end) elifs ++
        match els with
        | Some b' => tk K_COMMAND_START :: tk K_COMMAND_ELSE :: tk K_COMMAND_END :: ps b'
        | None => []
        end ++ [tk K_COMMAND_START; tk K_COMMAND_ENDIF; tk K_COMMAND_END]
    | WCmd els => tk K_COMMAND_START :: flat_map p_relem els ++ [tk K_COMMAND_TEXT_END]
    | WCall f args => tk K_COMMAND_START :: tk K_COMMAND_CALL :: er (ECall f args) ++ [tk K_COMMAND_END]
    | WDeclare x v ty =>
        tk K_COMMAND_START :: tk K_COMMAND_DECLARE :: (K_VAR_ID, 36%N :: x) :: tk K_OPERATOR_ASSIGNMENT :: er v ++
        match ty with Some t => [tk K_EXPRESSION_AS; (K_FUNC_ID, t)] | None => [] end ++ [tk K_COMMAND_END]
    | WBlock ws => tk K_INDENT :: ps ws ++ [tk K_DEDENT]
    end.

  Fixpoint pws (ws : list wstmt) : list T :=
    match ws with [] => [] | w :: r => pw w ++ pws r end.

  Definition p_body (b : list wstmt) : list T :=
    match b with [] => [] | _ => tk K_INDENT :: pws b ++ [tk K_DEDENT] end.
  Fixpoint p_opts (os : list (line * list wstmt)) : list T :=
    match os with
    | [] => []
    | (l, b) :: r => tk K_SHORTCUT_ARROW :: p_line l ++ p_body b ++ p_opts r
    end.
  Fixpoint p_elifs (cs : list (expr * list wstmt)) : list T :=
    match cs with
    | [] => []
    | (c', b') :: r => tk K_COMMAND_START :: tk K_COMMAND_ELSEIF :: er c' ++ tk K_COMMAND_END :: pws b' ++ p_elifs r
    end.
  Definition p_else (els : option (list wstmt)) : list T :=
    match els with
    | Some b' => tk K_COMMAND_START :: tk K_COMMAND_ELSE :: tk K_COMMAND_END :: pws b'
    | None => []
    end.
  Definition endif_toks : list T := [tk K_COMMAND_START; tk K_COMMAND_ENDIF; tk K_COMMAND_END].

  Lemma pw_opts os blank :
    pw (WOpts os blank) = p_opts os ++ (if blank then [tk K_BLANK_LINE_FOLLOWING_OPTION] else []).
  Proof. reflexivity. Qed.
  Lemma pw_if c b elifs els :
    pw (WIf c b elifs els) =
    tk K_COMMAND_START :: tk K_COMMAND_IF :: er c ++ tk K_COMMAND_END :: pws b ++ p_elifs elifs ++ p_else els ++ endif_toks.
  Proof. reflexivity. Qed.
  Lemma pw_block ws : pw (WBlock ws) = tk K_INDENT :: pws ws ++ [tk K_DEDENT].
  Proof. reflexivity. Qed.

  Lemma take_etoks_app es d rest : Forall is_etok es -> etok_of d = None ->
    take_etoks (es ++ d :: rest) = (fst (take_etoks es), d :: rest).
  Proof.
    Local Transparent take_etoks.
    intros H Hd. induction H as [|t es Ht _ IH]; cbn [app take_etoks fst].
    - rewrite Hd. reflexivity.
    - unfold is_etok in Ht. destruct (etok_of t) as [e|]; [|congruence].
      rewrite IH. destruct (take_etoks es) as [a b]. reflexivity.
    Local Opaque take_etoks.
  Qed.

  Lemma span_ok e d rest : ewf e -> etok_of d = None ->
    parse_expr_span (er e ++ d :: rest) = Some (e, d :: rest).
  Proof.
    Local Transparent parse_expr_span.
    intros He Hd. unfold parse_expr_span. rewrite (take_etoks_app _ _ _ (er_toks e) Hd), (er_parse e He). reflexivity.
    Local Opaque parse_expr_span.
  Qed.

  Definition text_ok (t : telem) : Prop := match t with TText s => s <> [] | TExpr e => ewf e end.
  Fixpoint no_adjacent_text (ts : list telem) : Prop :=
    match ts with
    | TText _ :: ((TText _ :: _) as r) => False
    | _ :: r => no_adjacent_text r
    | [] => True
    end.
  Definition line_ok (l : line) : Prop :=
    ltext l <> [] /\ Forall text_ok (ltext l) /\ no_adjacent_text (ltext l) /\
    match lcond l with Some c => ewf c | None => True end.

  Lemma no_adj_tail t els : no_adjacent_text (t :: els) -> no_adjacent_text els.
  Proof. destruct t; destruct els as [|[?|?] ?]; cbn; tauto. Qed.
  Lemma no_adj_text_head s els : no_adjacent_text (TText s :: els) ->
    match els with TText _ :: _ => False | _ => True end.
  Proof. destruct els as [|[?|?] ?]; cbn; tauto. Qed.

  Definition ends_text (acc : list telem) : bool :=
    match rev acc with TText _ :: _ => true | _ => false end.

  Lemma add_text_fresh acc s : ends_text acc = false -> add_text acc s = acc ++ [TText s].
  Proof.
    unfold ends_text, add_text. destruct (rev acc) as [|[t|e] r]; intros H; try reflexivity. discriminate.
  Qed.

  Lemma ends_text_snoc_text acc s : ends_text (acc ++ [TText s]) = true.
  Proof. unfold ends_text. rewrite rev_app_distr. reflexivity. Qed.
  Lemma ends_text_snoc_expr acc e : ends_text (acc ++ [TExpr e]) = false.
  Proof. unfold ends_text. rewrite rev_app_distr. reflexivity. Qed.

  Definition stops_ftext (ts : list T) : Prop :=
    match ts with (K_TEXT, _) :: _ | (K_EXPRESSION_START, _) :: _ => False | _ => True end.

  Lemma parse_ftext_stop f ts acc : stops_ftext ts -> acc <> [] -> parse_ftext (S f) ts acc = Some (acc, ts).
  Proof.
    intros Hs Ha. destruct acc as [|a acc']; [contradiction|]. destruct ts as [|[k s] r]; [reflexivity|].
    destruct k; try reflexivity; contradiction.
  Qed.

  Lemma parse_ftext_ok : forall els acc rest fuel,
    Forall text_ok els -> no_adjacent_text els ->
    (match els with TText _ :: _ => ends_text acc = false | _ => True end) ->
    stops_ftext rest -> acc ++ els <> [] -> length els < fuel ->
    parse_ftext fuel (flat_map p_telem els ++ rest) acc = Some (acc ++ els, rest).
  Proof.
    induction els as [|t els IH]; intros acc rest fuel Hok Hadj Hacc Hstop Hne Hf.
    - cbn [flat_map app]. rewrite app_nil_r in *. destruct fuel; [cbn in Hf; lia|]. apply parse_ftext_stop; assumption.
    - destruct fuel as [|f]; [cbn in Hf; lia|]. cbn [length] in Hf.
      inversion Hok as [|? ? Ht Hok']; subst.
      destruct t as [s|e]; cbn [flat_map p_telem app].
      + cbn [parse_ftext]. rewrite add_text_fresh by exact Hacc.
        replace (acc ++ TText s :: els) with ((acc ++ [TText s]) ++ els) by (rewrite <- app_assoc; reflexivity).
        apply IH; [exact Hok'|exact (no_adj_tail _ _ Hadj)| |exact Hstop| |lia].
        * pose proof (no_adj_text_head _ _ Hadj) as Hh. destruct els as [|[s'|e'] els']; try exact I. contradiction.
        * destruct (acc ++ [TText s]) eqn:E; [destruct acc; discriminate|]. destruct els; discriminate.
      + cbn [parse_ftext]. norm.
        rewrite span_ok by (exact Ht || reflexivity).
        replace (acc ++ TExpr e :: els) with ((acc ++ [TExpr e]) ++ els) by (rewrite <- app_assoc; reflexivity).
        apply IH; [exact Hok'|exact (no_adj_tail _ _ Hadj)| |exact Hstop| |lia].
        * destruct els as [|[s'|e'] els']; try exact I. apply ends_text_snoc_expr.
        * destruct (acc ++ [TExpr e]) eqn:E; [destruct acc; discriminate|]. destruct els; discriminate.
  Qed.

  Lemma parse_hashtags_ok tags rest :
    (match rest with (K_HASHTAG, _) :: _ => False | _ => True end) ->
    parse_hashtags (p_hashtags tags ++ rest) = (tags, rest).
  Proof.
    Local Transparent parse_hashtags.
    intros Hr. induction tags as [|t tags IH]; cbn [p_hashtags flat_map app].
    - destruct rest as [|[k s] r]; [reflexivity|]. destruct k; try reflexivity. contradiction.
    - change (flat_map (fun s => [tk K_HASHTAG; (K_HASHTAG_TEXT, s)]) tags) with (p_hashtags tags).
      cbn [parse_hashtags]. rewrite IH. reflexivity.
    Local Opaque parse_hashtags.
  Qed.

  Lemma flat_len els : length els <= length (flat_map p_telem els).
  Proof. apply flat_map_len. intros []; discriminate. Qed.

  Lemma parse_line_ok l rest : line_ok l -> parse_line (p_line l ++ rest) = Some (l, rest).
  Proof.
    intros (Hne & Hok & Hadj & Hc). destruct l as [txt cond tags]. unfold p_line. cbn [ltext lcond ltags] in *.
    rewrite <- !app_assoc.
    assert (Hft : forall tail, stops_ftext tail ->
              parse_ftext (S (length (flat_map p_telem txt ++ tail))) (flat_map p_telem txt ++ tail) [] = Some (txt, tail)).
    { intros tail Ht. apply (parse_ftext_ok txt [] tail); [exact Hok|exact Hadj| |exact Ht|exact Hne| ].
      - destruct txt as [|[s|e] r]; try exact I. reflexivity.
      - rewrite app_length. pose proof (flat_len txt). lia. }
    destruct cond as [c|]; cbn [p_cond app].
    - norm. erewrite parse_line_tail by (apply Hft; exact I).
      eapply line_tail_cond; [apply span_ok; [exact Hc|reflexivity]|apply parse_hashtags_ok; exact I].
    - erewrite parse_line_tail by (apply Hft; destruct tags; exact I).
      eapply line_tail_plain; [destruct tags; exact I|apply parse_hashtags_ok; exact I].
  Qed.

  Definition relem_ok (r : relem) : Prop := match r with RText _ => True | RExpr e => ewf e end.

  Lemma parse_ctext_ok : forall els acc rest fuel, Forall relem_ok els ->
    (match rest with (K_COMMAND_TEXT, _) :: _ | (K_COMMAND_EXPRESSION_START, _) :: _ => False | _ => True end) ->
    length els < fuel ->
    parse_ctext fuel (flat_map p_relem els ++ rest) acc = Some (acc ++ els, rest).
  Proof.
    Local Transparent parse_ctext.
    induction els as [|t els IH]; intros acc rest fuel Hok Hr Hf.
    - cbn [flat_map app]. rewrite app_nil_r. destruct fuel; [cbn in Hf; lia|].
      destruct rest as [|[k s] r]; [reflexivity|]. destruct k; try reflexivity; contradiction.
    - destruct fuel as [|f]; [cbn in Hf; lia|]. cbn [length] in Hf. inversion Hok as [|? ? Ht Hok']; subst.
      destruct t as [s|e]; cbn [flat_map p_relem app parse_ctext].
      + replace (acc ++ RText s :: els) with ((acc ++ [RText s]) ++ els) by (rewrite <- app_assoc; reflexivity).
        apply IH; try assumption. lia.
      + norm. rewrite span_ok by (exact Ht || reflexivity).
        replace (acc ++ RExpr e :: els) with ((acc ++ [RExpr e]) ++ els) by (rewrite <- app_assoc; reflexivity).
        apply IH; try assumption. lia.
    Local Opaque parse_ctext.
  Qed.

  Definition hd_kind (ts : list T) : kind := match ts with (k, _) :: _ => k | [] => K_EOF end.

  Definition last_body_empty (os : list (line * list wstmt)) : bool :=
    match rev os with (_, []) :: _ => true | _ => false end.

  (* the kind of the first token of [pws ws] followed by a token of kind k *)
  Definition first_kind (ws : list wstmt) (k : kind) : kind := hd_kind (pws ws ++ [(k, [])]).

  (* [wf1 w k]: w may be written in front of a token of kind k *)
  Inductive wf1 : wstmt -> kind -> Prop :=
  | wf_line l k : line_ok l -> wf1 (WLine l) k
  | wf_opts os blank k :
      os <> [] ->
      Forall (fun o => line_ok (fst o) /\ wfs (snd o) K_DEDENT) os ->
      (blank = true \/ (k <> K_SHORTCUT_ARROW /\ k <> K_BLANK_LINE_FOLLOWING_OPTION /\ (last_body_empty os = true -> k <> K_INDENT))) ->
      wf1 (WOpts os blank) k
  | wf_set x op e k : ewf e -> wf1 (WSet x op e) k
  | wf_jump_name d k : wf1 (WJumpName d) k
  | wf_jump_expr e k : ewf e -> wf1 (WJumpExpr e) k
  | wf_if c b elifs els k :
      ewf c -> wfs b K_COMMAND_START ->
      Forall (fun cb => ewf (fst cb) /\ wfs (snd cb) K_COMMAND_START) elifs ->
      (forall b', els = Some b' -> wfs b' K_COMMAND_START) ->
      wf1 (WIf c b elifs els) k
  | wf_cmd els k : Forall relem_ok els -> k <> K_HASHTAG -> wf1 (WCmd els) k
  | wf_call f args k : ewf (ECall f args) -> wf1 (WCall f args) k
  | wf_declare x v ty k : ewf v -> (exists a, v = expr_of_atom a) \/ (exists f args, v = ECall f args) ->
      wf1 (WDeclare x v ty) k
  | wf_block ws k : wfs ws K_DEDENT -> wf1 (WBlock ws) k
  with wfs : list wstmt -> kind -> Prop :=
  | wfs_nil k : wfs [] k
  | wfs_cons w r k : wf1 w (first_kind r k) -> wfs r k -> wfs (w :: r) k.

  Lemma hd_kind_app l rest : hd_kind (l ++ rest) = hd_kind (l ++ [(hd_kind rest, [])]).
  Proof. destruct l as [|[k s] l]; [destruct rest as [|[k s] r]; reflexivity|reflexivity]. Qed.

  (* [wssize ws] is fuel enough for parse_stmts to read [pws ws] (parse_written), and small enough to be
     bounded by the tokens (StmtParserTop.size_tokens).  Fuel bounds the nesting of the calls; the sizes
     of the parts are added where their maximum would do, and the constants are not tight: 1 for the
     turn of parse_stmts that finds no statement, 2 for a statement (the turn of parse_stmts that meets
     it and the call of parse_stmt), 3 and 4 where parse_stmt goes on into parse_options or into a body
     and parse_clauses, 2 for the calls around the body of each option or clause. *)
  Fixpoint wsize (w : wstmt) : nat :=
    let ss := fix ss (ws : list wstmt) : nat := match ws with [] => 1 | w :: r => wsize w + ss r end in
    match w with
    | WOpts os _ => 3 + (fix go (os : list (line * list wstmt)) :=
                           match os with [] => 0 | (_, b) :: r => 2 + ss b + go r end) os
    | WIf _ b elifs els =>
        4 + ss b + (fix go (cs : list (expr * list wstmt)) :=
                      match cs with [] => 0 | (_, b') :: r => 2 + ss b' + go r end) elifs +
        match els with Some b' => 2 + ss b' | None => 0 end
    | WBlock ws => 2 + ss ws
    | _ => 2
    end.
  Fixpoint wssize (ws : list wstmt) : nat := match ws with [] => 1 | w :: r => wsize w + wssize r end.
  Fixpoint osize (os : list (line * list wstmt)) : nat :=
    match os with [] => 0 | (_, b) :: r => 2 + wssize b + osize r end.
  Fixpoint csize (cs : list (expr * list wstmt)) : nat :=
    match cs with [] => 0 | (_, b) :: r => 2 + wssize b + csize r end.
  Definition elsize (els : option (list wstmt)) : nat := match els with Some b' => 2 + wssize b' | None => 0 end.

  Lemma wsize_opts os bl : wsize (WOpts os bl) = 3 + osize os.
  Proof. reflexivity. Qed.
  Lemma wsize_if c b elifs els : wsize (WIf c b elifs els) = 4 + wssize b + csize elifs + elsize els.
  Proof. reflexivity. Qed.
  Lemma wsize_block ws : wsize (WBlock ws) = 2 + wssize ws.
  Proof. reflexivity. Qed.
  Lemma wsize_pos w : 2 <= wsize w.
  Proof. destruct w; rewrite ?wsize_opts, ?wsize_if, ?wsize_block; cbn; lia. Qed.
  Lemma wssize_pos ws : 1 <= wssize ws.
  Proof. destruct ws; cbn [wssize]; [lia|]. pose proof (wsize_pos w). lia. Qed.

  (* a match on the kind of the head token falls to its default branch when the head is of another kind:
     stated once per kind for any branches, so that no proof splits the 86 kinds inside a large goal *)
  Lemma hd_not_indent {A} ts (yes : list T -> A) no : hd_kind ts <> K_INDENT ->
    match ts with (K_INDENT, _) :: r => yes r | _ => no end = no.
  Proof. intros H. destruct ts as [|[k s] r]; [reflexivity|]. destruct k; try reflexivity. destruct (H eq_refl). Qed.
  Lemma hd_not_arrow {A} ts (yes no : A) : hd_kind ts <> K_SHORTCUT_ARROW ->
    match ts with (K_SHORTCUT_ARROW, _) :: _ => yes | _ => no end = no.
  Proof. intros H. destruct ts as [|[k s] r]; [reflexivity|]. destruct k; try reflexivity. destruct (H eq_refl). Qed.
  Lemma hd_not_blank {A} ts (yes : list T -> A) no : hd_kind ts <> K_BLANK_LINE_FOLLOWING_OPTION ->
    match ts with (K_BLANK_LINE_FOLLOWING_OPTION, _) :: r => yes r | _ => no end = no.
  Proof. intros H. destruct ts as [|[k s] r]; [reflexivity|]. destruct k; try reflexivity. destruct (H eq_refl). Qed.
  Lemma hd_not_hashtag {A} ts (yes : list T -> A) no : hd_kind ts <> K_HASHTAG ->
    match ts with (K_HASHTAG, _) :: r => yes r | _ => no end = no.
  Proof. intros H. destruct ts as [|[k s] r]; [reflexivity|]. destruct k; try reflexivity. destruct (H eq_refl). Qed.

  Lemma parse_stmts_step f ts : starts_statement ts = true -> hd_kind ts <> K_INDENT ->
    parse_stmts (S f) ts =
    match parse_stmt f ts with
    | Some (s, r) => match parse_stmts f r with
                     | Some (rest, r2) => Some (s :: rest, r2)
                     | None => None
                     end
    | None => None
    end.
  Proof.
    intros H Hk. destruct ts as [|[k s] r]; [discriminate H|].
    destruct k; try discriminate H; try (cbn in Hk; congruence); cbn [parse_stmts]; rewrite H; reflexivity.
  Qed.

  Lemma parse_stmt_line f ts : hd_kind ts = K_TEXT \/ hd_kind ts = K_EXPRESSION_START ->
    parse_stmt (S f) ts = match parse_line ts with Some (l, r) => Some (SLine l, r) | None => None end.
  Proof.
    intros H. destruct ts as [|[k s] r]; cbn [hd_kind] in H; [destruct H; discriminate|].
    destruct H as [->| ->]; reflexivity.
  Qed.

  Lemma starts_line ts : hd_kind ts = K_TEXT \/ hd_kind ts = K_EXPRESSION_START -> starts_statement ts = true.
  Proof.
    intros H. destruct ts as [|[k s] r]; cbn [hd_kind] in H; [destruct H; discriminate|].
    destruct H as [->| ->]; reflexivity.
  Qed.

  Lemma p_line_head l tail : line_ok l ->
    hd_kind (p_line l ++ tail) = K_TEXT \/ hd_kind (p_line l ++ tail) = K_EXPRESSION_START.
  Proof.
    intros (Hne & _). unfold p_line. destruct (ltext l) as [|[s|e] r]; [contradiction| |]; cbn; auto.
  Qed.

  (* what follows an if body / an elseif body: never the start of a statement *)
  Lemma clauses_stop elifs els tail : starts_statement (p_elifs elifs ++ p_else els ++ endif_toks ++ tail) = false.
  Proof. destruct elifs as [|[c b] r]; [destruct els|]; reflexivity. Qed.

  Definition mean_else (els : option (list wstmt)) : list (expr * list stmt) :=
    match els with Some b' => [(EVal (VBool true), meaning b')] | None => [] end.

  (* statements that hold no statements are read by parse_stmt alone, with any fuel *)
  Definition simple (w : wstmt) : bool :=
    match w with WOpts _ _ | WIf _ _ _ _ | WBlock _ => false | _ => true end.

  Lemma parse_stmt_simple w tail f : simple w = true -> wf1 w (hd_kind tail) ->
    exists s, meaning1 w = [s] /\ parse_stmt (S f) (pw w ++ tail) = Some (s, tail) /\
              starts_statement (pw w ++ tail) = true /\ hd_kind (pw w ++ tail) <> K_INDENT.
  Proof.
    intros Es Hw. destruct w as [l|os blank|x op e|d|e|c b elifs els|els|fn args|x v ty|ws']; try discriminate Es;
      inversion Hw; subst; eexists; (split; [reflexivity|]); cbn [pw]; norm.
    - (* line *) pose proof (p_line_head l tail ltac:(assumption)) as Hh.
      rewrite parse_stmt_line, parse_line_ok by assumption.
      split; [reflexivity|]. split; [apply starts_line; exact Hh|destruct Hh as [E|E]; rewrite E; discriminate].
    - (* set *) cbn [parse_stmt]. unfold parse_simple_command. rewrite setop_roundtrip.
      rewrite span_ok by (assumption || reflexivity). repeat split. cbn. discriminate.
    - (* jump by name *) repeat split. cbn. discriminate.
    - (* jump by expression *) cbn [parse_stmt]. unfold parse_simple_command.
      rewrite span_ok by (assumption || reflexivity). repeat split. cbn. discriminate.
    - (* generic command: the text pieces, then no hashtag *)
      assert (Hct : parse_ctext (S (length (flat_map p_relem els ++ (K_COMMAND_TEXT_END, []) :: tail)))
                      (flat_map p_relem els ++ (K_COMMAND_TEXT_END, []) :: tail) [] = Some (els, (K_COMMAND_TEXT_END, []) :: tail)).
      { apply (parse_ctext_ok els []); [assumption|exact I|]. rewrite app_length.
        pose proof (flat_map_len p_relem els ltac:(intros []; discriminate)). lia. }
      assert (Htail : match tail with (K_HASHTAG, _) :: (K_HASHTAG_TEXT, _) :: _ => None
                                 | _ => Some (SCmd (rearrange els []), tail) end = Some (SCmd (rearrange els []), tail)).
      { apply hd_not_hashtag. assumption. }
      (* parse_stmt tells the commands apart by the token after `<<`: the first piece is exposed for it *)
      destruct els as [|[s|e] els']; cbn [flat_map p_relem app] in *; norm; repeat (rewrite <- app_assoc in Hct; cbn [app] in Hct);
        (split; [cbn [parse_stmt]; unfold parse_simple_command; rewrite Hct; exact Htail|split; [reflexivity|cbn; discriminate]]).
    - (* call *) cbn [parse_stmt]. unfold parse_simple_command.
      rewrite (take_etoks_app _ _ _ (er_toks _)) by reflexivity. rewrite er_call by assumption. repeat split. cbn. discriminate.
    - (* declare *) cbn [parse_stmt]. unfold parse_simple_command.
      destruct ty as [t|]; norm; rewrite (take_etoks_app _ _ _ (er_toks _)) by reflexivity; rewrite er_value by assumption;
        repeat split; cbn; discriminate.
  Qed.

  Definition stmts_ok (n : nat) : Prop :=
    forall ws rest fuel, wssize ws <= n -> wfs ws (hd_kind rest) -> starts_statement rest = false ->
      wssize ws <= fuel -> parse_stmts fuel (pws ws ++ rest) = Some (meaning ws, rest).

  Lemma parse_options_ok n : stmts_ok n ->
    forall os tail fuel, os <> [] -> osize os <= n ->
      Forall (fun o => line_ok (fst o) /\ wfs (snd o) K_DEDENT) os ->
      hd_kind tail <> K_SHORTCUT_ARROW -> (last_body_empty os = true -> hd_kind tail <> K_INDENT) ->
      osize os < fuel ->
      parse_options fuel (p_opts os ++ tail) = Some (mopts os, tail).
  Proof.
    intros IHn. induction os as [|[l b] r IH]; intros tail fuel Hne Hsz Hwf Harrow Hind Hf; [contradiction|].
    inversion Hwf as [|? ? [Hl Hb] Hwf']; subst. cbn [fst snd] in *.
    destruct fuel as [|f]; [lia|]. cbn [osize] in Hsz, Hf.
    cbn [p_opts mopts]. norm. cbn [parse_options].
    rewrite parse_line_ok by exact Hl.
    (* the body of this option: none written, and then no INDENT follows; or a block *)
    assert (Hbody : match p_body b ++ p_opts r ++ tail with
                    | (K_INDENT, _) :: r2 =>
                        match parse_stmts f r2 with
                        | Some (b0, (K_DEDENT, _) :: r3) => Some (b0, r3)
                        | _ => None
                        end
                    | _ => Some ([], p_body b ++ p_opts r ++ tail)
                    end = Some (meaning b, p_opts r ++ tail)).
    { destruct b as [|w b'].
      - apply hd_not_indent. destruct r as [|[l' b''] r']; [apply Hind; reflexivity|cbn; discriminate].
      - cbn [p_body]. norm.
        rewrite (IHn (w :: b') ((K_DEDENT, []) :: p_opts r ++ tail) f); [reflexivity | lia | exact Hb | reflexivity | lia]. }
    rewrite Hbody.
    (* the rest of the group *)
    destruct r as [|[l' b'] r'].
    - apply hd_not_arrow. exact Harrow.
    - rewrite IH; [reflexivity | discriminate | lia | exact Hwf' | exact Harrow | | lia].
      intros E. apply Hind. unfold last_body_empty in *. cbn [rev] in *. destruct (rev r' ++ [(l', b')]) eqn:Er; [|exact E].
      apply app_eq_nil in Er. destruct Er; discriminate.
  Qed.

  Lemma parse_clauses_ok n : stmts_ok n ->
    forall elifs els tail fuel, csize elifs + elsize els <= n ->
      Forall (fun cb => ewf (fst cb) /\ wfs (snd cb) K_COMMAND_START) elifs ->
      (forall b', els = Some b' -> wfs b' K_COMMAND_START) ->
      csize elifs + elsize els < fuel ->
      parse_clauses fuel (p_elifs elifs ++ p_else els ++ endif_toks ++ tail) = Some (mclauses elifs ++ mean_else els, tail).
  Proof.
    intros IHn. induction elifs as [|[c b] r IH]; intros els tail fuel Hsz Hwf Hels Hf.
    - cbn [p_elifs app mclauses csize] in *. destruct fuel as [|f]; [lia|].
      destruct els as [b'|]; cbn [p_else elsize mean_else] in *.
      + norm. cbn [parse_clauses].
        rewrite (IHn b' (endif_toks ++ tail) f); [reflexivity | lia | exact (Hels b' eq_refl) | reflexivity | lia].
      + reflexivity.
    - inversion Hwf as [|? ? [Hc Hb] Hwf']; subst. cbn [fst snd] in *.
      destruct fuel as [|f]; [lia|]. cbn [csize] in Hsz, Hf. cbn [p_elifs mclauses]. norm. cbn [parse_clauses].
      rewrite span_ok by (exact Hc || reflexivity).
      rewrite (IHn b (p_elifs r ++ p_else els ++ endif_toks ++ tail) f);
        [| lia | | apply clauses_stop | lia].
      + rewrite IH; [reflexivity | lia | exact Hwf' | exact Hels | lia].
      + destruct r as [|[c' b''] r']; [destruct els|]; exact Hb.
  Qed.

  Theorem parse_written_n : forall n, stmts_ok n.
  Proof.
    (* a statement counts at least 2 and a sequence at least 1: what stands inside or after a statement
       is within the bound one below *)
    induction n as [|n IHn]; intros ws rest fuel Hsz Hwf Hstop Hfuel.
    { pose proof (wssize_pos ws). lia. }
    destruct ws as [|w r].
    - cbn [pws app meaning]. cbn [wssize] in Hfuel. destruct fuel as [|f]; [lia|]. apply parse_stmts_stop. exact Hstop.
    - inversion Hwf as [|? ? ? Hw Hr]; subst.
      cbn [wssize] in Hsz, Hfuel. pose proof (wsize_pos w) as Hwp. pose proof (wssize_pos r) as Hrp.
      destruct fuel as [|f]; [lia|].
      assert (Hk : first_kind r (hd_kind rest) = hd_kind (pws r ++ rest)).
      { unfold first_kind. symmetry. apply hd_kind_app. }
      rewrite Hk in Hw.
      (* the statements after w *)
      assert (Hnext : parse_stmts f (pws r ++ rest) = Some (meaning r, rest)).
      { apply IHn; [lia | exact Hr | exact Hstop | lia]. }
      cbn [pws meaning]. rewrite <- app_assoc.
      set (tail := pws r ++ rest) in *.
      destruct (simple w) eqn:Es.
      { destruct f as [|f']; [lia|].
        destruct (parse_stmt_simple w tail f' Es Hw) as (s & -> & Hp & Hst & Hni).
        rewrite parse_stmts_step by assumption. rewrite Hp, Hnext. reflexivity. }
      destruct w as [l|os blank|x op e|d|e|c b elifs els|els|fn args|x v ty|ws']; try discriminate Es.
      + (* option group *)
        inversion Hw as [|? ? ? Hne Hos Hafter| | | | | | | |]; subst.
        rewrite wsize_opts in Hsz, Hfuel. rewrite pw_opts, meaning1_opts. rewrite <- app_assoc.
        destruct os as [|[l0 b0] os']; [contradiction|].
        rewrite parse_stmts_step; [| reflexivity | cbn; discriminate].
        destruct f as [|f']; [lia|].
        (* the arrow is exposed for parse_stmt to compute on it, then folded back into p_opts *)
        change (p_opts ((l0, b0) :: os')) with ((K_SHORTCUT_ARROW, []) :: p_line l0 ++ p_body b0 ++ p_opts os').
        cbn [app parse_stmt].
        change ((K_SHORTCUT_ARROW, []) :: (p_line l0 ++ p_body b0 ++ p_opts os') ++ (if blank then [(K_BLANK_LINE_FOLLOWING_OPTION, [])] else []) ++ tail)
          with (p_opts ((l0, b0) :: os') ++ ((if blank then [(K_BLANK_LINE_FOLLOWING_OPTION, [])] else []) ++ tail)).
        rewrite (parse_options_ok n IHn);
          [| discriminate | lia | exact Hos | | | lia].
        * destruct blank; cbn [app].
          -- rewrite Hnext. reflexivity.
          -- rewrite hd_not_blank, Hnext; [reflexivity|]. destruct Hafter as [E|(_ & Hbl & _)]; [discriminate|exact Hbl].
        * destruct blank; cbn [app]; [cbn; discriminate|]. destruct Hafter as [E|(Ha & Hbl & Hb)]; [discriminate|exact Ha].
        * destruct blank; cbn [app]; [cbn; discriminate|]. destruct Hafter as [E|(Ha & Hbl & Hb)]; [discriminate|exact Hb].
      + (* if *)
        inversion Hw as [| | | | |? ? ? ? ? Hc Hb Helifs Hels| | | |]; subst.
        rewrite wsize_if in Hsz, Hfuel. rewrite pw_if, meaning1_if. norm.
        rewrite parse_stmts_step; [| reflexivity | cbn; discriminate].
        destruct f as [|f']; [lia|].
        cbn [parse_stmt]. rewrite span_ok by (assumption || reflexivity).
        rewrite (IHn b (p_elifs elifs ++ p_else els ++ endif_toks ++ tail) f');
          [| lia | | apply clauses_stop | lia].
        * rewrite (parse_clauses_ok n IHn); [| lia | exact Helifs | exact Hels | lia].
          rewrite Hnext. reflexivity.
        * destruct elifs as [|[c' b''] r']; [destruct els|]; exact Hb.
      + (* INDENT ... DEDENT *)
        inversion Hw; subst. rewrite wsize_block in Hsz, Hfuel. rewrite pw_block, meaning1_block. norm.
        rewrite parse_stmts_block.
        rewrite (IHn ws' ((K_DEDENT, []) :: tail) f); [| lia | assumption | reflexivity | lia].
        rewrite Hnext. reflexivity.
  Qed.

  Theorem parse_written : forall ws rest fuel,
    wfs ws (hd_kind rest) -> starts_statement rest = false -> wssize ws <= fuel ->
    parse_stmts fuel (pws ws ++ rest) = Some (meaning ws, rest).
  Proof. intros ws rest fuel. apply (parse_written_n (wssize ws)). lia. Qed.
End Written.

(* a node with one header around a written body (the fuel the model gives parse_stmts is
   2 * tokens + 4; that it always suffices is not proved here - it is a premise) *)
Theorem parse_written_node (er : expr -> list (kind * str)) (ewf : expr -> Prop) :
  (forall e, Forall is_etok (er e)) ->
  (forall e, ewf e -> parse_expression (fst (take_etoks (er e))) = Some e) ->
  (forall f args, ewf (ECall f args) -> parse_call_toks (fst (take_etoks (er (ECall f args)))) = Some (f, args)) ->
  (forall v, ewf v -> (exists a, v = expr_of_atom a) \/ (exists f args, v = ECall f args) ->
             parse_value_toks (fst (take_etoks (er v))) = Some v) ->
  forall k d v s ws e rest,
    wfs er ewf ws K_BODY_END ->
    wssize ws <= stmt_fuel (pws er ws ++ (K_BODY_END, e) :: rest) ->
    parse_node ((K_ID, k) :: (K_HEADER_DELIMITER, d) :: (K_REST_OF_LINE, v) :: (K_BODY_START, s) :: pws er ws ++ (K_BODY_END, e) :: rest)
    = Some ({| headers := [(k, v)]; body := meaning ws |}, rest).
Proof.
  intros H1 H2 H3 H4 k d v s ws e rest Hw Hf.
  unfold parse_node. cbn [parse_headers aset].
  rewrite (parse_written er ewf H1 H2 H3 H4 ws ((K_BODY_END, e) :: rest) _ Hw eq_refl Hf).
  reflexivity.
Qed.
