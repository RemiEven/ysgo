(* C03, "the variable storer is the single source of truth": GetValue and GetValues of the in-memory
   storer agree on every name - for every store reachable by writes, and across everything a runner
   does.  Needs two invariants: a name lives in at most one of the three typed maps (single, D2),
   and each map holds a key once (a Go map does; an association list has to be told). *)
From Coq Require Import List ZArith.
From YS Require Import Base.Sexp Num.F64 Yarn.Ast Yarn.Value Yarn.Runner Proofs.AListProofs Proofs.SetProofs Proofs.StepProofs.
Import ListNotations.

(* every key occurs once, as in a Go map *)
Fixpoint wf {V} (m : alist V) : Prop :=
  match m with
  | [] => True
  | (k, _) :: r => aget r k = None /\ wf r
  end.

Lemma wf_aset {V} (m : alist V) k v : wf m -> wf (aset m k v).
Proof.
  induction m as [|[k' v'] r IH]; intros H; cbn [aset].
  - cbn. auto.
  - destruct H as [Hf Hr]. destruct (str_eqb k' k) eqn:E.
    + apply str_eqb_eq in E. subst k'. cbn [wf]. auto.
    + cbn [wf]. split; [|apply IH; exact Hr].
      rewrite aget_aset. rewrite str_eqb_sym, E. exact Hf.
Qed.

Lemma wf_adel {V} (m : alist V) k : wf m -> wf (adel m k).
Proof.
  induction m as [|[k' v'] r IH]; intros H; cbn [adel]; [exact I|].
  destruct H as [Hf Hr]. destruct (str_eqb k' k) eqn:E; [apply IH; exact Hr|].
  cbn [wf]. split; [|apply IH; exact Hr].
  rewrite aget_adel. rewrite str_eqb_sym, E. exact Hf.
Qed.

(* writing every entry of a well-formed list into a map: the list's entries win, the rest stays *)
Lemma aget_fold_aset {V W} (f : V -> W) (l : alist V) : wf l -> forall (m : alist W) k,
  aget (fold_left (fun m kv => aset m (fst kv) (f (snd kv))) l m) k
  = match aget l k with Some v => Some (f v) | None => aget m k end.
Proof.
  induction l as [|[k1 v1] r IH]; intros Hw m k; [reflexivity|].
  destruct Hw as [Hf Hr]. cbn [fold_left fst snd aget]. rewrite (IH Hr).
  destruct (str_eqb k1 k) eqn:E.
  - apply str_eqb_eq in E. subst k1. rewrite Hf. rewrite aget_aset_same. reflexivity.
  - destruct (aget r k); [reflexivity|]. rewrite aget_aset, E. reflexivity.
Qed.

Lemma wf_fold_aset {V W} (f : V -> W) (l : alist V) : forall m : alist W, wf m ->
  wf (fold_left (fun m kv => aset m (fst kv) (f (snd kv))) l m).
Proof. induction l as [|[k v] r IH]; intros m H; [exact H|]. cbn [fold_left fst snd]. apply IH, wf_aset, H. Qed.

Lemma wf_st_values st : wf (st_values st).
Proof. unfold st_values. repeat apply wf_fold_aset. exact I. Qed.

Lemma st_get_rebuild k : forall l st0, wf l ->
  st_get (fold_left (fun st kv => st_set st (fst kv) (snd kv)) l st0) k
  = match aget l k with Some v => Some v | None => st_get st0 k end.
Proof.
  induction l as [|[k1 v1] r IH]; intros st0 Hw; [reflexivity|].
  destruct Hw as [Hf Hr]. cbn [fold_left fst snd aget]. rewrite (IH _ Hr).
  destruct (str_eqb k1 k) eqn:E.
  - apply str_eqb_eq in E. subst k1. rewrite Hf. apply st_get_set.
  - destruct (aget r k); [reflexivity|]. apply st_get_set_other. exact E.
Qed.

Definition store_ok (st : store) : Prop := single st /\ wf (nums st) /\ wf (bools st) /\ wf (strs st).

Lemma store_ok_empty : store_ok empty_store.
Proof. split; [exact single_empty|]. cbn. auto. Qed.

Lemma store_ok_set st k v : store_ok st -> store_ok (st_set st k v).
Proof.
  intros (Hs & Hn & Hb & Ht). split; [apply single_set; exact Hs|].
  destruct v; cbn [st_set st_set_num st_set_bool st_set_str nums bools strs];
    repeat split; first [apply wf_aset | apply wf_adel]; assumption.
Qed.

Theorem store_ok_after_writes ws :
  store_ok (fold_left (fun st kv => st_set st (fst kv) (snd kv)) ws empty_store).
Proof. exact (writes_inv store_ok store_ok_set ws _ store_ok_empty). Qed.

Theorem get_values_agrees st k : store_ok st -> aget (st_values st) k = st_get st k.
Proof.
  intros (Hs & Hn & Hb & Ht). unfold st_values, st_get.
  rewrite (aget_fold_aset VStr (strs st) Ht), (aget_fold_aset VNum (nums st) Hn), (aget_fold_aset VBool (bools st) Hb).
  specialize (Hs k). cbn [aget].
  destruct (aget (nums st) k), (aget (bools st) k), (aget (strs st) k); try contradiction; reflexivity.
Qed.

(* without the invariant the two can disagree - the defect D2 of the pinned tree: a store holding
   x as a number and as a string answers GetValue with the number, GetValues with the string *)
Example get_values_needs_single :
  let st := {| nums := [(STR "x", of_Z 1)]; bools := []; strs := [(STR "x", STR "s")] |} in
  st_get st (STR "x") = Some (VNum (of_Z 1)) /\ aget (st_values st) (STR "x") = Some (VStr (STR "s")).
Proof. split; reflexivity. Qed.

Lemma next_store_inv (Q : store -> Prop) (Hset : forall st k v, Q st -> Q (st_set st k v)) d fm m c :
  Q (vars (dat m)) -> Q (vars (dat (snd (next d fm m c)))).
Proof.
  apply (next_preserves d (fun s => Q (vars s))).
  intros s s' [e p sc|e k v|e n] H; [exact H|exact (Hset _ k v H)|exact H].
Qed.

Theorem next_single d fm m c : single (vars (dat m)) -> single (vars (dat (snd (next d fm m c)))).
Proof. apply next_store_inv. exact single_set. Qed.

Theorem next_store_ok d fm m c : store_ok (vars (dat m)) -> store_ok (vars (dat (snd (next d fm m c)))).
Proof. apply next_store_inv. exact store_ok_set. Qed.

Theorem get_values_agrees_across_next d fm m c k : store_ok (vars (dat m)) ->
  let st := vars (dat (snd (next d fm m c))) in aget (st_values st) k = st_get st k.
Proof. intros H. apply get_values_agrees, next_store_ok, H. Qed.

Theorem get_values_agrees_after_writes ws k :
  let st := fold_left (fun st kv => st_set st (fst kv) (snd kv)) ws empty_store in
  aget (st_values st) k = st_get st k.
Proof. apply get_values_agrees, store_ok_after_writes. Qed.
