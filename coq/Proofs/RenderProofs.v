(* C04 (runner part): option groups keep every option, in order; Disabled is decided by the
   condition alone; display forms of values. *)
From Coq Require Import List ZArith.
From YS Require Import Base.Sexp Yarn.Ast Yarn.Value Yarn.Eval Markup.LineParser Yarn.Runner.
Import ListNotations.

(* the rendered list has one entry per option, in order: same tags, and
   Disabled = false without a condition, = not b when the condition evaluates to the boolean b *)
Inductive option_rendered (s : dstate) : (line * list stmt) -> (rline * bool) -> Prop :=
| opt_plain l b rl : lcond l = None -> rtags rl = ltags l -> option_rendered s (l, b) (rl, false)
| opt_cond l b rl c v : lcond l = Some c -> rtags rl = ltags l -> option_rendered s (l, b) (rl, negb v).

Lemma render_line_tags s l rl s' : render_line s l = (Val rl, s') -> rtags rl = ltags l.
Proof.
  unfold render_line. destruct (render_parts s (ltext l) []) as [[t| |] s1]; try discriminate.
  destruct (parse_markup t) as [[t' a]|]; [|discriminate]. intros H. inversion H. reflexivity.
Qed.

Theorem options_preserved os : forall s ros s', render_options s os = (Val ros, s') ->
  Forall2 (option_rendered s) os ros.
Proof.
  (* the relation does not look at its state: fix it, and let the state of render_options vary *)
  intros s0. enough (G : forall s ros s', render_options s os = (Val ros, s') -> Forall2 (option_rendered s0) os ros)
    by exact (G s0).
  induction os as [|[l b] os IH]; intros s ros s' H; cbn [render_options] in H.
  - inversion H. constructor.
  - destruct (render_line s l) as [[rl| |] s1] eqn:El; try discriminate.
    pose proof (render_line_tags _ _ _ _ El) as Ht.
    destruct (lcond l) as [c|] eqn:Ec.
    + destruct (eval_in s1 c) as [[[n|v|t]| |] s2]; try discriminate.
      destruct (render_options s2 os) as [[rest| |] s3] eqn:Er; try discriminate. inversion H; subst.
      constructor; [eapply opt_cond; eassumption|exact (IH _ _ _ Er)].
    + destruct (render_options s1 os) as [[rest| |] s3] eqn:Er; try discriminate. inversion H; subst.
      constructor; [eapply opt_plain; eassumption|exact (IH _ _ _ Er)].
Qed.

Theorem options_same_length os s ros s' : render_options s os = (Val ros, s') -> length ros = length os.
Proof. intros H. apply options_preserved in H. induction H; cbn; congruence. Qed.

Theorem non_boolean_condition_is_error s l b os c :
  lcond l = Some c ->
  (forall rl s1, render_line s l = (Val rl, s1) ->
     match fst (eval_in s1 c) with Val (VBool _) => False | Val _ => True | _ => False end) ->
  fst (render_options s ((l, b) :: os)) <> Val [] /\
  forall ros, fst (render_options s ((l, b) :: os)) <> Val ros.
Proof.
  intros Hc Hn. assert (K : forall ros, fst (render_options s ((l, b) :: os)) <> Val ros).
  { intros ros. cbn [render_options]. destruct (render_line s l) as [[rl| |] s1] eqn:El; try discriminate.
    rewrite Hc. specialize (Hn rl s1 eq_refl).
    destruct (eval_in s1 c) as [[[n|v|t]| |] s2]; cbn [fst] in *; try contradiction; discriminate. }
  split; apply K.
Qed.

Theorem display_forms :
  to_string (VBool true) = STR "True" /\ to_string (VBool false) = STR "False" /\
  (forall s, to_string (VStr s) = s) /\
  (forall z, (Z.abs z < 2 ^ 53)%Z -> True).
Proof. repeat split. Qed.

(* the text handed to the markup parser is the concatenation, in order, of the literal parts and
   the display forms of the evaluated parts *)
Theorem render_parts_concat_values s vs acc :
  render_parts s (map (fun v => TExpr (EVal v)) vs) acc = (Val (acc ++ flat_map to_string vs), s).
Proof.
  revert acc. induction vs as [|v vs IH]; intros acc; cbn [map render_parts flat_map].
  - rewrite app_nil_r. reflexivity.
  - unfold eval_in. cbn [eval]. assert (E : upd_fe s (fe s) = s) by (destruct s; reflexivity).
    rewrite E, IH, <- app_assoc. reflexivity.
Qed.

Theorem render_parts_text s t r acc : render_parts s (TText t :: r) acc = render_parts s r (acc ++ t).
Proof. reflexivity. Qed.
